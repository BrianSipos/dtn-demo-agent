(* C17 -- the TCPCL endpoint answers out-of-place peer messages without
   corrupting its state: event-loop callbacks never let an exception escape,
   every rejected message is answered by exactly one MSG_REJECT, and the
   endpoint's own queued transfers are unaffected.

   Every statement is about the executable model Model/TcpclSess.v
   (s = run c ops: every configuration, every operation list -- every schedule,
   chunking, back-pressure pattern, position of the D-Bus calls and arbitrary
   received octets -- unless a hypothesis says otherwise).

   Hypotheses of (17a), both necessary (Examples below):
     (i)  OStart is the first operation: the agent always starts a handler
          before the loop runs; otherwise an active endpoint that reads a contact
          header raises AttributeError (conhead_this is unset);
     (ii) every SESS_INIT the endpoint parses carries an ASCII node id
          (sessinit_ascii on the ghost log [handled] of the frames given to
          recv_message): the model treats any other node id as undecodable
          (UnicodeDecodeError); a node id that is not UTF-8 is not a well-formed
          message.

   Known finding: an unknown message type never completes,
   the receive stream stalls (C17_unknown_type_stalls, C17_unknown_type_stalls_rx).

   (17d) "never delivers data assembled from mismatched transfers" is a fact
   about the specification fold over the handled frames (no_mixed_delivery);
   pop_delivered ties that fold to what the endpoint hands out.  Both are from
   Proofs/TcpclXferRecv.v. *)
From Coq Require Import List NArith Bool.
Import ListNotations.
From DTN Require Import Lib.Bytes Model.TcpclMsg Model.TcpclSess Model.TcpclXferSpec
  Proofs.TcpclRobustProofs Proofs.TcpclXferRecv.
From DTN Require Proofs.TcpclSessSpec.
Local Open Scope N_scope.

(* ---- (17a) no exception escapes an event-loop callback, and the receive
        watch stays registered (the endpoint does not go deaf) *)
Theorem C17_no_escape : forall c ops o,
  non_user o = true ->
  let s := run c (OStart :: ops) in
  Forall sessinit_ascii (handled (step s o)) ->
  (exists evs, trace (step s o) = trace s ++ evs /\ forall k, ~ In (EExc k) evs)
  /\ rx_alive (step s o) = rx_alive s.
Proof. exact no_escape. Qed.
Print Assumptions C17_no_escape.

Definition c17_cfg : cfg := mkCfg true [97] 30 60 1000 500 None.
Definition c17_ops : list op :=
  [ORx (MAGIC ++ [4; 0]); ORx (encode_msg (MSessInit 20 400 1000 [98] []));
   ORx (encode_msg (MXferAck 1 7 5))].
Example C17_no_escape_nonvacuous :
  non_user (ORx (encode_msg (MXferRefuse 1 9))) = true
  /\ Forall sessinit_ascii
       (handled (step (run c17_cfg (OStart :: c17_ops)) (ORx (encode_msg (MXferRefuse 1 9)))))
  /\ length (handled (step (run c17_cfg (OStart :: c17_ops)) (ORx (encode_msg (MXferRefuse 1 9))))) = 4%nat.
Proof. vm_compute. split; [reflexivity|]. split; [repeat constructor|reflexivity]. Qed.

(* hypothesis (i) is necessary *)
Example C17_no_escape_needs_start :
  trace (run cfg_active [ORx (MAGIC ++ [4; 0])]) = [EExc EX_ATTRIBUTE]
  /\ rx_alive (run cfg_active [ORx (MAGIC ++ [4; 0])]) = false.
Proof. exact no_escape_needs_start. Qed.

(* hypothesis (ii) is necessary *)
Example C17_no_escape_needs_ascii :
  let ops := [OStart; ORx (MAGIC ++ [4; 0]);
              ORx (encode_msg (MSessInit 30 1000 1000 [200] []))] in
  trace (run cfg_active ops)
  = [ESig SigState [PStr ST_CONTACT]; ESig SigState [PStr ST_SESSNEG]; EExc EX_UNICODE].
Proof. exact no_escape_needs_ascii. Qed.

(* ---- what the D-Bus caller can get back: exactly three errors (terminate() or
        send_bundle_data() while terminating; pop of an unknown id) -- API errors
        returned to the caller, not escapes from an event-loop callback *)
Theorem C17_term_twice : forall s r,
  closed s = false -> in_sess s = true -> in_term s = true ->
  step s (OTerm r) = emit (EExc EX_RUNTIME) s.
Proof. exact term_twice. Qed.
Print Assumptions C17_term_twice.

Theorem C17_pop_unknown : forall s id,
  closed s = false -> dict_get id (rx_map s) = None ->
  step s (OPop id) = emit (EExc EX_KEY) s.
Proof. exact pop_unknown. Qed.
Print Assumptions C17_pop_unknown.

(* send_bundle_data once the session is terminating: refused (RuntimeError to the
   caller), nothing is queued, the state is otherwise unchanged *)
Theorem C17_send_terminating : forall s d,
  closed s = false -> in_term s = true ->
  step s (OSend d) = emit (EExc EX_RUNTIME) s.
Proof. exact TcpclSessSpec.send_terminating. Qed.
Print Assumptions C17_send_terminating.

(* every event a user operation adds is not an exception, except in exactly
   these three cases (in any state whatsoever) *)
Theorem C17_user_errors : forall s o,
  non_user o = false ->
  exists evs, trace (step s o) = trace s ++ evs /\
    Forall (fun e =>
      is_exc e = false
      \/ (e = EExc EX_RUNTIME /\ exists r, o = OTerm r /\ closed s = false /\ in_sess s = true /\ in_term s = true)
      \/ (e = EExc EX_KEY /\ exists id, o = OPop id /\ closed s = false /\ dict_get id (rx_map s) = None)
      \/ (e = EExc EX_RUNTIME /\ exists d, o = OSend d /\ closed s = false /\ in_term s = true)) evs.
Proof. exact step_user_events. Qed.
Print Assumptions C17_user_errors.

(* the whole run: every exception event was returned to a D-Bus caller *)
Theorem C17_exc_only_user : forall c ops,
  Forall sessinit_ascii (handled (run c (OStart :: ops))) ->
  forall k, In (EExc k) (trace (run c (OStart :: ops))) ->
    (k = EX_RUNTIME /\ ((exists r, In (OTerm r) ops) \/ (exists d, In (OSend d) ops)))
    \/ (k = EX_KEY /\ exists id, In (OPop id) ops).
Proof. exact exc_only_user. Qed.
Print Assumptions C17_exc_only_user.

Example C17_exc_only_user_nonvacuous :
  let ops := c17_ops ++ [OPop 3; OTerm 0; OTerm 0; OSend [1]] in
  Forall sessinit_ascii (handled (run c17_cfg (OStart :: ops)))
  /\ filter is_exc (trace (run c17_cfg (OStart :: ops)))
     = [EExc EX_KEY; EExc EX_RUNTIME; EExc EX_RUNTIME]
  /\ q_tx_queue (run c17_cfg (OStart :: ops)) = [].
Proof. vm_compute. split; [repeat constructor|split; reflexivity]. Qed.

(* ---- (17b) a rejected message is answered by exactly one MSG_REJECT, reason
        3 (unexpected), and nothing else is sent *)
Theorem C17_answered : forall m s s' r,
  handle_msg m s = (s', Reject r) ->
  recv_frame (FMsg m) s = (send_msg (MReject (msg_id m) r) s', None)
  /\ sent (fst (recv_frame (FMsg m) s)) = sent s ++ [FMsg (MReject (msg_id m) r)]
  /\ r = REJ_UNEXPECTED.
Proof. exact answered. Qed.
Print Assumptions C17_answered.

Example C17_answered_nonvacuous :
  sent (run c17_cfg (OStart :: c17_ops))
  = [FContact (mkContact MAGIC 4 0); FMsg (MSessInit 30 1000 (2^64 - 1) [97] []);
     FMsg (MReject 2 3)].
Proof. vm_compute. reflexivity. Qed.

(* which messages are rejected *)
Theorem C17_reject_before_session : forall m s,
  in_sess s = false ->
  match m with MXferSeg _ _ _ _ | MXferAck _ _ _ | MXferRefuse _ _ | MSessTerm _ _ => True | _ => False end ->
  handle_msg m s = (s, Reject REJ_UNEXPECTED).
Proof. exact reject_before_session. Qed.
Print Assumptions C17_reject_before_session.

Theorem C17_reject_segment_no_transfer : forall flags xid ext data s,
  in_sess s = true -> has_start flags = false ->
  match rx_tmp s with Some (cur, _) => (cur =? xid) = false | None => True end ->
  handle_msg (MXferSeg flags xid ext data) s = (s, Reject REJ_UNEXPECTED).
Proof. exact reject_segment_no_transfer. Qed.
Print Assumptions C17_reject_segment_no_transfer.

Theorem C17_reject_ack_unknown : forall flags xid len s,
  in_sess s = true -> ~ In xid (map fst (tx_map s)) ->
  handle_msg (MXferAck flags xid len) s = (s, Reject REJ_UNEXPECTED).
Proof. exact reject_ack_unknown. Qed.
Print Assumptions C17_reject_ack_unknown.

Theorem C17_reject_refuse_unknown : forall reason xid s,
  in_sess s = true -> ~ In xid (map fst (tx_map s)) ->
  handle_msg (MXferRefuse reason xid) s = (s, Reject REJ_UNEXPECTED).
Proof. exact reject_refuse_unknown. Qed.
Print Assumptions C17_reject_refuse_unknown.

(* a contact header with the wrong magic or version closes the connection; like
   every close it first reports the transfers that were never started
   (send_bundle_finished(id, 0, 'session terminating') for each), sends nothing *)
Theorem C17_bad_contact_closes : forall c s,
  contact_ok c = false ->
  let s' := fst (recv_frame (FContact c) s) in
  snd (recv_frame (FContact c) s) = None /\ closed s' = true /\ sent s' = sent s
  /\ (closed s = false ->
      trace s' = (trace s ++ map (fun it : N * bytes =>
                                   ESig SigSendFinished [PStrNum (fst it); PInt 0; PStr RES_TERMINATING])
                                (pend_start s)) ++ [EClosed]).
Proof. exact bad_contact_closes. Qed.
Print Assumptions C17_bad_contact_closes.

Example C17_bad_contact_nonvacuous :
  let s := run c17_cfg [OStart; OSend [1]; ORx ([100; 116; 110; 63] ++ [4; 0])] in
  closed s = true
  /\ trace s = [ESig SigState [PStr ST_CONTACT]; ERet 1 (PStrNum 1);
                ESig SigSendFinished [PStrNum 1; PInt 0; PStr RES_TERMINATING]; EClosed]
  /\ q_tx_queue s = [].
Proof. vm_compute. repeat split. Qed.

(* recorded finding: an unknown message type never completes *)
Theorem C17_unknown_type_stalls : forall id rest,
  (id = 0 \/ 8 <= id) -> parse_msg (id :: rest) = None.
Proof. exact unknown_type_stalls. Qed.
Print Assumptions C17_unknown_type_stalls.

Theorem C17_unknown_type_stalls_rx : forall id rest data s,
  (id = 0 \/ 8 <= id) -> closed s = false -> rx_alive s = true -> in_conn s = true ->
  rx_buf s = id :: rest -> data <> [] ->
  let s' := step s (ORx data) in
  rx_buf s' = rx_buf s ++ data /\ handled s' = handled s /\ sent s' = sent s /\ trace s' = trace s.
Proof. exact unknown_type_stalls_rx. Qed.
Print Assumptions C17_unknown_type_stalls_rx.

(* ---- (17c) a rejected message does not touch the endpoint's own transfers *)
Theorem C17_own_transfers_unaffected : forall m s s' r,
  handle_msg m s = (s', Reject r) ->
  pend_start s' = pend_start s /\ tx_tmp s' = tx_tmp s /\ tx_len s' = tx_len s
  /\ pend_ack s' = pend_ack s /\ map fst (tx_map s') = map fst (tx_map s)
  /\ rx_map s' = rx_map s /\ rx_tmp s' = rx_tmp s /\ next_id s' = next_id s.
Proof. exact own_transfers_unaffected. Qed.
Print Assumptions C17_own_transfers_unaffected.

(* ---- (17d) from the transfer structure (Proofs/TcpclXferRecv.v): every bundle
        handed to the application (popped) is a specified delivery, and each
        specified delivery (xid, d) is the concatenation of the data of the
        segments of ONE transfer id -- a START segment of xid, then (among frames
        none of which is a START) the segments of xid up to its first END *)
Theorem C17_pop_delivered : forall c ops id d,
  In (EPop id d) (trace (run c ops)) -> In (id, d) (deliver_spec (handled (run c ops))).
Proof. exact pop_delivered. Qed.
Print Assumptions C17_pop_delivered.

Theorem C17_no_mixed_delivery :
  forall (h : list frame) (xid : N) (d : bytes),
    In (xid, d) (deliver_spec h) ->
    exists pre fl0 e0 d0 mid post,
      h = pre ++ FMsg (MXferSeg fl0 xid e0 d0) :: mid ++ post /\
      has_start fl0 = true /\
      Forall (fun f => is_start f = false) mid /\
      d = d0 ++ concat (map (contrib xid) mid) /\
      ((has_end fl0 = true /\ mid = []) \/
       (has_end fl0 = false /\
        exists mid' fle ee de, mid = mid' ++ [FMsg (MXferSeg fle xid ee de)] /\ has_end fle = true /\
                               Forall (fun f => is_end_of xid f = false) mid')).
Proof. exact no_mixed_delivery. Qed.
Print Assumptions C17_no_mixed_delivery.
