(** C20 -- BTP-U messages round-trip and segmented transfers reassemble.

    "Every BTP-U message set the agent builds (bundle PDU, transfer
    segment/end with length hints, padding) decodes to the same messages,
    with declared lengths equal to actual lengths, and decoding then
    re-encoding any valid frame reproduces it.  A bundle that does not fit
    the MTU is sent as segments each within the MTU whose data, concatenated
    by index, equals the bundle, and a receiver that gets each segment once
    in any order queues exactly that bundle once."

    Model: Model/Btpu.v (tied to /repo by harness/check_C20.py).
    Hypotheses are boolean predicates of the model ([wf_msgb], [wf_frameb],
    [mtu_feasible], [fits], [send_okb]); the [*_nonvacuous] Examples of
    Proofs/BtpuTopProofs.v and Proofs/BtpuIndepProofs.v give inputs that
    satisfy those of the sender and receiver theorems.

    Guards, and what lies behind them on the unchanged code:
      - total message length < 2^20 ([wf_msgb], [send_okb], [blen data <? LEN_MOD]):
        without it the declared length is wrong -- [C20_declared_lengths_refuted]
        (known finding: 20-bit length field overflow);
      - [mtu_feasible mtu] (mtu > 18): otherwise the real sender loops forever;
      - field widths (octets < 256, xfer_num and indices < 2^32, hint data <= 255):
        the real code raises outside them;
      - the receiver clause quantifies over this sender's segments, which are
        always >= 2 ([C20_send_ge_2_segments]); a peer's single-segment
        transfer is never completed ([C20_note_end_index_zero_never_completes]). *)
From Coq Require Import NArith ZArith List Permutation.
From DTN Require Import Lib.Bytes Model.Btpu Gen.BtpuBudget.
From DTN Require Import Proofs.BtpuProofs Proofs.BtpuSendProofs Proofs.BtpuRecvProofs Proofs.BtpuTopProofs Proofs.BtpuBudgetProofs Proofs.BtpuIndepProofs.
Import ListNotations.
Local Open Scope N_scope.

(** ** Codec *)

Theorem C20_roundtrip : forall (m : msg) (rest : bytes),
  wf_msgb m = true -> decode_msg (encode_msg m ++ rest) = Some (m, rest).
Proof. exact decode_msg_encode. Qed.
Print Assumptions C20_roundtrip.

(** Full statement: for every message the agent builds, the length field
    equals the number of octets that follow the 4-octet header.  Proved under
    the guard "hints + payload < 2^20" (part of [wf_msgb]); without it the
    statement is false, see [C20_declared_lengths_refuted]. *)
Theorem C20_declared_lengths_partial : forall (m : msg) (rest : bytes),
  wf_msgb m = true ->
  declared_len (encode_msg m ++ rest) = Some (blen (encode_hints (m_hints m)) + blen (m_body m))
  /\ blen (encode_msg m) = 4 + (blen (encode_hints (m_hints m)) + blen (m_body m)).
Proof. exact declared_len_encode. Qed.
Print Assumptions C20_declared_lengths_partial.

Theorem C20_declared_lengths_refuted :
  exists d : bytes,
    wf_bytesb d = true /\ blen d = 1048576
    /\ declared_len (encode_msg (mk_bundle d)) = Some 0
    /\ option_map (fun f => (map (fun m => blen (m_body m)) (f_msgs f), blen (f_pad f)))
                  (decode_frame (encode_frame (mkFrame [mk_bundle d] [])))
       = Some ([0], 1048576).
Proof. exact declared_len_refuted. Qed.
Print Assumptions C20_declared_lengths_refuted.

Theorem C20_frame_roundtrip : forall f : frame,
  wf_frameb f = true -> decode_frame (encode_frame f) = Some f.
Proof. exact decode_frame_encode. Qed.
Print Assumptions C20_frame_roundtrip.

(** Every octet string that decodes at all re-encodes to itself (and what
    it decodes to is well-formed, so decoding is injective on valid frames). *)
Theorem C20_reencode : forall (bs : bytes) (f : frame),
  wf_bytesb bs = true -> decode_frame bs = Some f -> encode_frame f = bs /\ wf_frameb f = true.
Proof. exact decode_frame_inv. Qed.
Print Assumptions C20_reencode.

(** ** What the sender builds decodes to what it built *)

Theorem C20_sent_unsegmented_partial : forall (mtu : option N) (xid : N) (data : bytes),
  fits mtu (blen data) = true -> wf_bytesb data = true -> blen data <? LEN_MOD = true ->
  let f := encode_frame (mkFrame [mk_bundle data] []) in
  send_transfer mtu xid data = [f]
  /\ decode_frame f = Some (mkFrame [mk_bundle data] [])
  /\ declared_len f = Some (blen data) /\ blen f = 4 + blen data
  /\ (data <> [] -> view (mk_bundle data) = CBundle data).
Proof. exact sent_unsegmented. Qed.
Print Assumptions C20_sent_unsegmented_partial.

Theorem C20_sent_segments_decode : forall (mtu xid : N) (data : bytes),
  send_okb mtu xid data = true ->
  let hs := xfer_hints (blen data) in
  send_transfer (Some mtu) xid data = map (seg_frame hs xid) (segments hs mtu data)
  /\ Forall (fun s =>
       decode_frame (seg_frame hs xid s) = Some (mkFrame [seg_msg hs xid s] [])
       /\ view (seg_msg hs xid s)
          = (if seg_last s then CEnd xid (seg_idx s) (seg_data s) else CSeg xid (seg_idx s) (seg_data s))
       /\ declared_len (seg_frame hs xid s) = Some (blen (seg_frame hs xid s) - 4)
       /\ m_hints (seg_msg hs xid s) = hs)
     (segments hs mtu data).
Proof. exact sent_segments. Qed.
Print Assumptions C20_sent_segments_decode.

(** ** Segmentation: for ALL bundle lengths and MTUs *)

Theorem C20_within_mtu : forall (mtu xid : N) (data : bytes),
  mtu_feasible mtu = true \/ fits (Some mtu) (blen data) = true ->
  Forall (fun f => blen f <= mtu) (send_transfer (Some mtu) xid data).
Proof. exact within_mtu. Qed.
Print Assumptions C20_within_mtu.

(** For any hint list in place of the code's one total-length hint. *)
Theorem C20_within_mtu_any_hints : forall (hs : list hint) (mtu xid : N) (data : bytes),
  mtu_feasible_h hs mtu = true ->
  Forall (fun f => blen f <= mtu) (send_transfer_h hs (Some mtu) xid data).
Proof. exact within_mtu_h. Qed.
Print Assumptions C20_within_mtu_any_hints.

(** [shape 0 segs]: indices 0,1,2,... in order, every segment non-empty,
    the end marker exactly on the last one. *)
Theorem C20_concat : forall (mtu xid : N) (data : bytes),
  mtu_feasible mtu = true -> fits (Some mtu) (blen data) = false ->
  let hs := xfer_hints (blen data) in
  let segs := segments hs mtu data in
  send_transfer (Some mtu) xid data = map (seg_frame hs xid) segs
  /\ shape 0 segs
  /\ concat (map seg_data segs) = data
  /\ (2 <= length segs)%nat.
Proof. exact segmented_send. Qed.
Print Assumptions C20_concat.

Theorem C20_send_ge_2_segments : forall (hs : list hint) (mtu : N) (data : bytes),
  mtu_feasible_h hs mtu = true -> fits (Some mtu) (blen data) = false ->
  (2 <= length (segments hs mtu data))%nat.
Proof. exact segments_ge2. Qed.
Print Assumptions C20_send_ge_2_segments.

(** ** Reassembly: every arrival order, each frame exactly once *)

(** From any receiver state [st] that has no transfer in progress under the
    same (conversation, transfer number): after all frames the queue and the
    emitted signals have grown by exactly this bundle, the transfer entry is
    gone, and after any proper prefix of the arrivals nothing was queued or
    signalled. *)
Theorem C20_reassembly_any_order_once :
  forall (mtu xid : N) (conv : chan) (st : rx) (data : bytes) (p : list bytes),
  send_okb mtu xid data = true ->
  plookup (conv, xid) (r_prog st) = None ->
  Permutation p (send_transfer (Some mtu) xid data) ->
  let fin := fold_left (recv_frame conv) p st in
  r_queue fin = r_queue st ++ [(r_next st, data)]
  /\ r_signals fin = r_signals st ++ [(r_next st, blen data, c_peer conv)]
  /\ plookup (conv, xid) (r_prog fin) = None
  /\ (forall p1 p2 : list bytes, p = p1 ++ p2 -> p2 <> [] ->
        r_queue (fold_left (recv_frame conv) p1 st) = r_queue st
        /\ r_signals (fold_left (recv_frame conv) p1 st) = r_signals st).
Proof. exact reassembly_any_order_once. Qed.
Print Assumptions C20_reassembly_any_order_once.

(** The same for any hint list. *)
Theorem C20_reassembly_any_hints :
  forall (hs : list hint) (mtu xid : N) (conv : chan) (st : rx) (data : bytes) (p : list bytes),
  xfer_okb hs mtu xid data = true ->
  plookup (conv, xid) (r_prog st) = None ->
  Permutation p (send_transfer_h hs (Some mtu) xid data) ->
  let fin := fold_left (recv_frame conv) p st in
  r_queue fin = r_queue st ++ [(r_next st, data)]
  /\ r_signals fin = r_signals st ++ [(r_next st, blen data, c_peer conv)]
  /\ plookup (conv, xid) (r_prog fin) = None
  /\ (forall p1 p2 : list bytes, p = p1 ++ p2 -> p2 <> [] ->
        r_queue (fold_left (recv_frame conv) p1 st) = r_queue st
        /\ r_signals (fold_left (recv_frame conv) p1 st) = r_signals st).
Proof. exact reassembly_h. Qed.
Print Assumptions C20_reassembly_any_hints.

(** ** Several transfers at once: different keys do not interact *)

(** The table of transfers in progress is keyed by the channel -- local
    interface, peer address, local address, VLAN tag -- and the transfer
    number.  For every key [k], every receiver state and every sequence of
    arriving transfer messages [l] (of any transfers, complete or not,
    interleaved in any way): what is held for [k] afterwards and the bundles
    completed for [k] are what they are when only the messages of key [k]
    arrive ([for_key k l] = those messages, in their order). *)
Theorem C20_transfers_of_different_peers_independent :
  forall (k : key) (l : list item) (st : rx),
  plookup k (r_prog (fold_left recv_item l st)) = plookup k (r_prog (fold_left recv_item (for_key k l) st))
  /\ completions k st l = completions k st (for_key k l).
Proof. exact independent. Qed.
Print Assumptions C20_transfers_of_different_peers_independent.

Theorem C20_key_tells_peers_apart : forall (a b : chan) (x y : N),
  c_peer a <> c_peer b -> key_eqb (a, x) (b, y) = false.
Proof. exact key_eqb_peer. Qed.
Print Assumptions C20_key_tells_peers_apart.

(** Hence: whatever else arrives in between, if the segments of one transfer
    are among the arrivals each exactly once in any order (and nothing was in
    progress under its key), exactly that bundle is completed for the key,
    exactly once, and its entry is gone. *)
Theorem C20_interleaved_transfer_reassembles :
  forall (hs : list hint) (mtu xid : N) (conv : chan) (data : bytes) (st : rx)
         (l : list item) (p : list (N * bytes * bool)),
  xfer_okb hs mtu xid data = true ->
  plookup (conv, xid) (r_prog st) = None ->
  Permutation p (segments hs mtu data) ->
  for_key (conv, xid) l = map (seg_item conv xid) p ->
  completions (conv, xid) st l = [data]
  /\ plookup (conv, xid) (r_prog (fold_left recv_item l st)) = None.
Proof. exact interleaved_transfer. Qed.
Print Assumptions C20_interleaved_transfer_reassembles.

(** ** Tie to the source: Gen/BtpuBudget.v is regenerated from btpu/agent.py
    and btpu/messages.py on every run; the model's sender is what it says. *)

Theorem C20_tie_fits : forall total mtu : N,
  BtpuBudget.unsegmented (Z.of_N total) (Z.of_N mtu) = fits (Some mtu) total.
Proof. exact tie_fits. Qed.
Print Assumptions C20_tie_fits.

Theorem C20_tie_hint : forall total : N,
  xfer_hints total = [mkHint BtpuBudget.hint_type (be BtpuBudget.hint_width total)].
Proof. exact tie_hint. Qed.
Print Assumptions C20_tie_hint.

Theorem C20_tie_remain : forall (hs : list hint) (mtu : N),
  Z.to_N (BtpuBudget.remain_size (Z.of_N mtu) (Z.of_N (head_len hs))) = Btpu.remain_size hs mtu.
Proof. exact tie_remain. Qed.
Print Assumptions C20_tie_remain.

Theorem C20_tie_types_widths : forall hs x i d,
  (m_type (mk_bundle d) = BtpuBudget.type_pdu
   /\ m_type (mk_padding d) = BtpuBudget.type_padding
   /\ m_type (mk_seg hs false x i d) = BtpuBudget.type_more
   /\ m_type (mk_seg hs true x i d) = BtpuBudget.type_last
   /\ m_type (mk_cancel x) = BtpuBudget.type_cancel)
  /\ (LEN_MOD = 2 ^ BtpuBudget.len_bits
      /\ 16 = 2 ^ BtpuBudget.flags_bits
      /\ 128 = 2 ^ BtpuBudget.hint_type_bits
      /\ 2 = 2 ^ BtpuBudget.h_flag_bits
      /\ BtpuBudget.flags_bits + BtpuBudget.len_bits = 24).
Proof. intros. split; [apply tie_types|exact tie_widths]. Qed.
Print Assumptions C20_tie_types_widths.

(** [EthernetChannel.key] (regenerated) is the tuple of all four dataclass
    fields, each exactly once, and [_recv_msg] keys its table by it and the
    transfer number; the model's key equality is equality of exactly these. *)
Theorem C20_tie_key :
  BtpuBudget.chan_nfields = 4%nat
  /\ length BtpuBudget.key_fields = BtpuBudget.chan_nfields
  /\ forallb (fun i => existsb (Nat.eqb i) BtpuBudget.key_fields) (seq 0 BtpuBudget.chan_nfields) = true
  /\ BtpuBudget.rx_key_is_conv_key_and_xfer_num = true
  /\ (forall a b x y, key_eqb (a, x) (b, y) = true <->
        c_if a = c_if b /\ c_peer a = c_peer b /\ c_local a = c_local b /\ c_vlan a = c_vlan b /\ x = y).
Proof. exact tie_key. Qed.
Print Assumptions C20_tie_key.

(** One iteration of the code's loop at offset [off] is one step of [chunk]
    on the remainder [skipn off data]. *)
Theorem C20_tie_loop_step : forall (data : bytes) (off rs : nat),
  (off <= length data)%nat ->
  let total := Z.of_nat (length data) in
  let o := Z.of_nat off in
  let r := Z.of_nat rs in
  let rem := skipn off data in
  BtpuBudget.loop_test o total = negb (is_nil rem)
  /\ firstn (Z.to_nat (BtpuBudget.slice_hi o r) - Z.to_nat (BtpuBudget.slice_lo o r))
            (skipn (Z.to_nat (BtpuBudget.slice_lo o r)) data) = firstn rs rem
  /\ skipn (Z.to_nat (BtpuBudget.next_offset o r)) data = skipn rs rem
  /\ BtpuBudget.more_test (BtpuBudget.next_offset o r) total = negb (is_nil (skipn rs rem))
  /\ BtpuBudget.next_idx 0 = 1%Z /\ BtpuBudget.init_idx = 0%Z /\ BtpuBudget.init_offset = 0%Z.
Proof. exact tie_loop_step. Qed.
Print Assumptions C20_tie_loop_step.

(** ** Noted behaviour outside C20's quantifier (what the guards exclude) *)

Theorem C20_note_end_index_zero_never_completes :
  let f := seg_frame (xfer_hints 3) 9 (0, [1; 2; 3], true) in
  decode_frame f = Some (mkFrame [mk_seg (xfer_hints 3) true 9 0 [1; 2; 3]] [])
  /\ queued (recv_frame chan1 rx_init f) = []
  /\ map (fun e => (fst e, x_end (snd e), x_segs (snd e))) (r_prog (recv_frame chan1 rx_init f))
     = [((chan1, 9), Some 0, [(0, [1; 2; 3])])].
Proof. exact note_end_index_zero_never_completes. Qed.
Print Assumptions C20_note_end_index_zero_never_completes.

Theorem C20_note_zero_length_bundle_not_queued :
  send_transfer None 0 [] = [[2; 0; 0; 0]]
  /\ decode_frame [2; 0; 0; 0] = Some (mkFrame [mk_bundle []] [])
  /\ view (mk_bundle []) = COther
  /\ queued (recv_frame chan1 rx_init [2; 0; 0; 0]) = [].
Proof. exact note_zero_length_bundle_not_queued. Qed.
Print Assumptions C20_note_zero_length_bundle_not_queued.

Theorem C20_note_infeasible_mtu :
  mtu_feasible 18 = false
  /\ map seg_data (segments (xfer_hints 14) 18 (mkdata 1 14)) = repeat [] 14.
Proof. exact note_infeasible_mtu. Qed.
Print Assumptions C20_note_infeasible_mtu.
