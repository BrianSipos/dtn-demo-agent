(** Property C02 - BPv7 bundle encoding round-trips and is RFC 9171 well-formed.

    Model: [Model/Bundle.v] ([impl_encode_bundle] = [bytes(Bundle)], [decode_bundle] = [Bundle(bytes)],
    tied to /repo on every run by the correspondence in [harness/check_C02.py]).

    Full-strength statements (NOT provable for the unchanged implementation):
      C02_roundtrip : forall b, wf_bundle b -> rfc_admin_ok b = true ->
                        decode_bundle (impl_encode_bundle b) = Some b
      C02_reencode  : forall bs b, decode_bundle bs = Some b -> rfc9171_canonical bs ->
                        impl_encode_bundle b = bs
      status_report_roundtrip : forall r, wf_status_report r ->
                        decode_status_report (encode_status_report r) = Some r
    They are refuted below by two defect classes of the faithful model, replayed on the implementation by
    the check:
      (1) a dtn EID whose SSP contains '?' or '#' (legal in the demux by the ABNF of RFC 9171 4.2.5.1.1)
          is cut there when encoded (urlsplit) - [C02_roundtrip_refuted], [C02_reencode_refuted]
          (the witness is not admin-flagged, so [rfc_admin_ok] and the [impl_admin_ok] in which
          [C02_roundtrip_refuted] is stated both hold of it);
      (2) a status report whose reason code is not a member of the implementation's enum (e.g. 11,
          "Block unsupported", RFC 9171 9.5) cannot be decoded, nor can the bundle carrying it -
          [status_report_roundtrip_refuted], [C02_roundtrip_refuted_reason].
    The [_partial] theorems carry the guard that excludes exactly these classes:
      [impl_norm_bundle b = b]  (no EID is changed by the text conversion; [C02_guard_eids] and
                                 [C02_guard_ssp_abnf] say when that holds) and
      [impl_admin_ok b = true]  (an admin-flagged bundle carries records the implementation can parse). *)
From Coq Require Import List NArith.
From DTN Require Import Lib.Bytes Lib.Cbor Model.Bundle Proofs.BundleProofs.
Import ListNotations.
Local Open Scope N_scope.

(** encoding then decoding yields the same field values *)
Theorem C02_roundtrip_partial : forall b : bundle,
  wf_bundle b -> impl_norm_bundle b = b -> impl_admin_ok b = true ->
  decode_bundle (impl_encode_bundle b) = Some b.
Proof. exact bundle_roundtrip. Qed.
Print Assumptions C02_roundtrip_partial.

Theorem C02_roundtrip_refuted :
  exists b : bundle, wf_bundle b /\ impl_admin_ok b = true /\
                     decode_bundle (impl_encode_bundle b) <> Some b.
Proof. exists query_bundle. exact query_bundle_refuted. Qed.
Print Assumptions C02_roundtrip_refuted.

Theorem C02_roundtrip_refuted_reason :
  exists b : bundle, wf_bundle b /\ impl_norm_bundle b = b /\ rfc_admin_ok b = true /\
                     decode_bundle (impl_encode_bundle b) = None.
Proof. exists reason11_bundle. destruct reason11_refuted as (_ & _ & _ & H). exact H. Qed.
Print Assumptions C02_roundtrip_refuted_reason.

(** decoding octets an independent deterministic RFC 9171 encoder can produce, then re-encoding,
    reproduces the octets *)
Theorem C02_reencode_partial : forall (bs : bytes) (b : bundle),
  decode_bundle bs = Some b ->
  (exists items, Forall Cbor.wf items /\ bs = encode_indef_arr items) ->     (* = rfc9171_canonical bs *)
  impl_norm_bundle b = b ->
  impl_encode_bundle b = bs.
Proof. exact bundle_reencode. Qed.
Print Assumptions C02_reencode_partial.

Theorem C02_reencode_refuted :
  exists (bs : bytes) (b : bundle),
    (exists items, Forall Cbor.wf items /\ bs = encode_indef_arr items) /\
    decode_bundle bs = Some b /\ impl_encode_bundle b <> bs.
Proof. exists (encode_bundle query_bundle), query_bundle. exact query_bundle_reencode_refuted. Qed.
Print Assumptions C02_reencode_refuted.

(** the same two statements for the tree conversion alone (no octets, no implementation guard) *)
Theorem C02_tree_roundtrip : forall b : bundle,
  wf_primary (prim b) -> Forall wf_cblock (blocks b) -> bundle_of_items (bundle_items b) = Some b.
Proof. exact bundle_tree_roundtrip. Qed.
Print Assumptions C02_tree_roundtrip.

Theorem C02_tree_reencode : forall (items : list cbor) (b : bundle),
  bundle_of_items items = Some b -> bundle_items b = items.
Proof. exact bundle_tree_reencode. Qed.
Print Assumptions C02_tree_reencode.

(** The encoded form, as the generic CBOR decoder reads it: an indefinite-length array (first octet
    0x9f, nothing after the break) whose first item is an array of 8..11 items and whose remaining items
    are arrays of 5..6 items, the last of which starts with block type 1.  Payload-last is a hypothesis
    ([payload_last], third conjunct of [wf_bundle]). *)
Theorem C02_shape : forall b : bundle,
  wf_primary (prim (impl_norm_bundle b)) /\ Forall wf_cblock (blocks (impl_norm_bundle b)) /\
  payload_last (blocks (impl_norm_bundle b)) ->                              (* = wf_bundle (impl_norm_bundle b) *)
  exists p blks pre lastl,
    hd_error (impl_encode_bundle b) = Some 159 /\
    Cbor.decode bundle_fuel (impl_encode_bundle b) = Some (CArr (CArr p :: blks), []) /\
    (8 <= length p <= 11)%nat /\
    Forall (fun c => exists l, c = CArr l /\ (5 <= length l <= 6)%nat) blks /\
    blks = pre ++ [CArr lastl] /\ hd_error lastl = Some (CUint 1).
Proof. exact bundle_shape. Qed.
Print Assumptions C02_shape.

Theorem C02_primary_len : forall p : primary,
  (8 <= length (primary_items p) <= 11)%nat /\
  (wf_primary p ->
   length (primary_items p) =
   (8 + (if is_fragment p then 2 else 0) + (if N.eqb (crc_type p) 0 then 0 else 1))%nat).
Proof. intros p. split; [apply primary_items_length_bounds|apply primary_items_length_wf]. Qed.
Print Assumptions C02_primary_len.

Theorem C02_cblock_len : forall blk : cblock,
  (5 <= length (cblock_items blk) <= 6)%nat /\
  (wf_cblock blk -> length (cblock_items blk) = (5 + (if N.eqb (bcrc_type blk) 0 then 0 else 1))%nat).
Proof. intros blk. split; [apply cblock_items_length_bounds|apply cblock_items_length_wf]. Qed.
Print Assumptions C02_cblock_len.

Theorem eid_roundtrip : forall e : eid, wf_eid e -> eid_of_cbor (cbor_of_eid e) = Some e.
Proof. exact BundleProofs.eid_roundtrip. Qed.
Print Assumptions eid_roundtrip.

Theorem eid_reencode : forall (c : cbor) (e : eid), eid_of_cbor c = Some e -> cbor_of_eid e = c.
Proof. exact eid_of_cbor_inv. Qed.
Print Assumptions eid_reencode.

Theorem status_report_roundtrip_partial : forall r : status_report,
  wf_status_report r -> impl_reason_known (sr_reason r) = true ->
  decode_status_report (encode_status_report r) = Some r.
Proof. exact status_report_roundtrip. Qed.
Print Assumptions status_report_roundtrip_partial.

Theorem status_report_roundtrip_refuted :
  exists r : status_report, wf_status_report r /\ sr_reason r = 11 /\
    rfc_decode_status_report (encode_status_report r) = Some r /\
    decode_status_report (encode_status_report r) = None.
Proof.
  exists reason11_report. destruct reason11_refuted as (H1 & H2 & H3 & _).
  split; [exact H1|]. split; [reflexivity|]. split; assumption.
Qed.
Print Assumptions status_report_roundtrip_refuted.

Theorem admin_record_reencode : forall (bs : bytes) (a : admin_record),
  decode_admin_record bs = Some a -> encode_admin_record a = bs.
Proof. exact (BundleProofs.admin_record_reencode impl_reason_known). Qed.
Print Assumptions admin_record_reencode.

(** when the guard [impl_norm_bundle b = b] holds *)
Theorem C02_guard_eids : forall b : bundle,
  impl_norm_eid (dest (prim b)) = dest (prim b) ->
  impl_norm_eid (src (prim b)) = src (prim b) ->
  impl_norm_eid (report_to (prim b)) = report_to (prim b) ->
  Forall (fun blk => forall r, decode_admin_record (btsd blk) = Some (AdminStatus r) ->
                               impl_norm_eid (sr_src r) = sr_src r) (blocks b) ->
  impl_norm_bundle b = b.
Proof. exact impl_norm_bundle_stable. Qed.
Print Assumptions C02_guard_eids.

(** "//" node-name "/" demux  with neither '#' (35) nor '?' (63) is left alone; '/' = 47 *)
Theorem C02_guard_ssp_abnf : forall node demux : bytes,
  node <> [] -> ~ In 47 node -> ~ In 35 (node ++ demux) -> ~ In 63 (node ++ demux) ->
  impl_norm_ssp (47 :: 47 :: node ++ 47 :: demux) = 47 :: 47 :: node ++ 47 :: demux.
Proof. exact impl_norm_ssp_abnf. Qed.
Print Assumptions C02_guard_ssp_abnf.

(** Non-vacuity, pinned to octets the real code produced ([bytes(Bundle(...))], see the comments at
    [real_bundle] / [real_report_bundle] in [Proofs/BundleProofs.v]): the model encodes the
    corresponding records to exactly those octets, decodes them back, and they satisfy every hypothesis
    used above. *)
Theorem C02_nonvacuous :
  impl_encode_bundle real_bundle = real_bundle_octets /\
  decode_bundle real_bundle_octets = Some real_bundle /\
  wf_bundle real_bundle /\ impl_norm_bundle real_bundle = real_bundle /\ impl_admin_ok real_bundle = true /\
  (exists items, Forall Cbor.wf items /\ real_bundle_octets = encode_indef_arr items) /\
  crc_ok_bundle real_bundle = true /\
  impl_encode_bundle real_report_bundle = real_report_octets /\
  wf_status_report real_report /\ impl_reason_known (sr_reason real_report) = true /\
  wf_bundle real_report_bundle /\ impl_norm_bundle real_report_bundle = real_report_bundle /\
  impl_admin_ok real_report_bundle = true.
Proof.
  destruct real_bundle_wf as (H1 & H2 & H3). destruct real_report_wf as (R1 & R2 & R3 & R4 & R5 & _).
  split; [exact real_bundle_encoding|]. split; [exact real_bundle_decoding|].
  split; [exact H1|]. split; [exact H2|]. split; [exact H3|]. split; [exact real_bundle_canonical|].
  split; [apply real_bundle_crc|]. split; [exact real_report_encoding|].
  split; [exact R1|]. split; [exact R2|]. split; [exact R3|]. split; [exact R4|exact R5].
Qed.
Print Assumptions C02_nonvacuous.
