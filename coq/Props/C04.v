(* C04 -- the frames an endpoint sends follow the RFC 9174 grammar.

   Model: Model/TcpclSess.v (ep, step, run); [sent s] is the sequence of
   frames given to Messenger.send_message, [handled s] the frames given to
   recv_message, [wire s], [conn_tx s], [msg_tx s] the octets written to the
   socket / buffered in the two transmit buffers.  All theorems hold for EVERY
   configuration and EVERY operation list (every schedule of the event loop,
   chunking of reads, back-pressure pattern of writes, user call position, and
   ARBITRARY received octets) unless a hypothesis says otherwise.

   Accounting
     C04_sent_accounting   the octets written or buffered are exactly the
                           encodings of the frames of [sent s], in order;
     C04_step_mono         [sent], [wire], [trace], [handled] only grow.
   The clauses of the grammar
     (2a) C04_contact_first / C04_contact_first_map  exactly one contact header, first;
     (2b) C04_sess_term_once   at most one SESS_TERM; [in_term] iff one was sent;
     (2c) no START segment after SESS_TERM.  The FULL-STRENGTH statement
            sent s = pre ++ FMsg (MSessTerm fl r) :: post -> no START segment in post
          is FALSE for the model as for the code: C04_no_start_after_term_refuted
          (segment size 0 -- peer announces segment MRU 0, or
          segment_size_tx_initial = 0, or the merge of the session settings fails
          after _in_sess was set: every _process_queue pass sends another START
          segment with no data and never advances, also after SESS_TERM;
          file.read(0) returns b'').  Proved: C04_no_start_after_term_partial,
          under the hypothesis that the segment size in use is positive in every
          state of the run in which the session is established; and
          C04_no_start_after_term_inputs, the same under hypotheses on the inputs
          only: 1 <= segment_size_tx_initial, and every SESS_INIT handled announces a
          segment MRU >= 1 and a decodable (ASCII) node id -- these imply the guard
          (C04_pos_seg_from_inputs).  A peer announcing segment MRU 0 makes data
          transfer impossible for any implementation, and a SESS_INIT whose node id
          is not valid UTF-8 is not a well-formed message, so this is an input guard;
     (2d) C04_sess_init_active   an active endpoint sends at most one SESS_INIT,
          and it is its second frame, whatever the peer does;
          C04_sess_init_passive  a passive endpoint sends exactly one SESS_INIT per
          SESS_INIT handled, and its first message is SESS_INIT if the first
          message it handled is;
     (2e) the grammar [legal] / [legal_prefix] (Proofs/TcpclSentProofs11.v: contact
          header; SESS_INIT; then XFER_SEGMENT / XFER_ACK / XFER_REFUSE /
          KEEPALIVE / MSG_REJECT, at most one SESS_TERM, no START segment after
          it; and every prefix thereof, C04_legal_prefix_spec).
          C04_grammar_active_weak / C04_grammar_passive_weak / C04_pair_weak: the
          grammar without the START-after-SESS_TERM clause, unconditionally (for the
          passive side: for a cooperating peer, which an active endpoint is);
          C04_grammar_active_partial / C04_grammar_passive_partial / C04_pair_partial:
          the full grammar under the positive-segment-size hypothesis of (2c);
          C04_grammar_active_inputs / C04_grammar_passive_inputs: the same under the
          input hypotheses of (2c);
     (2f) C04_seg_within_mru  if at most one SESS_INIT was handled, every segment
          sent carries at most the announced segment MRU of data octets;
     (2g) C04_ack_echo  UNCONDITIONALLY the XFER_ACKs sent are exactly those owed
          for the handled frames ([ack_spec]: flags octet, transfer id and
          cumulative length of every acceptable segment, in order).
   Well-formedness and the closed channel property
     C04_sent_wf  every frame sent fits its field widths ([wf_frame]), provided the
          configuration does (keepalive < 2^16, segment MRU < 2^64, node id shorter
          than 2^16 octets), reads deliver octets, terminate() reasons are octets,
          bundles are octet strings shorter than 2^64, and fewer than 2^64
          operations are performed / octets received;
     C04_channel_closed  with C04_sent_accounting, C04_sent_wf and
          C04_contact_first_map the channel lemma of C07 needs only the network
          hypothesis: what B has handled is a prefix of what A has sent;
     C04_pair_closed  hence an active A and a passive B connected by such a network
          both send prefixes of legal sequences. *)
From Coq Require Import List NArith Bool.
Import ListNotations.
From DTN Require Import Lib.Bytes Model.TcpclMsg Model.TcpclSess Proofs.TcpclSentProofs Proofs.TcpclSentProofs16.
From DTN Require Proofs.TcpclChannelProofs.
Local Open Scope N_scope.

Theorem C04_sent_accounting : forall (c : cfg) (ops : list op),
  let s := run c ops in
  wire s ++ conn_tx s ++ msg_tx s = concat (map encode_frame (sent s)).
Proof. exact sent_accounting. Qed.
Print Assumptions C04_sent_accounting.

Theorem C04_step_mono : forall (s : ep) (o : op),
  (exists x, sent (step s o) = sent s ++ x) /\ (exists w, wire (step s o) = wire s ++ w)
  /\ (exists t, trace (step s o) = trace s ++ t) /\ (exists h, handled (step s o) = handled s ++ h).
Proof. exact step_mono. Qed.
Print Assumptions C04_step_mono.

Theorem C04_contact_first : forall (c : cfg) (ops : list op),
  let s := run c ops in
  sent s = [] \/ exists rest, sent s = FContact (mkContact MAGIC 4 0) :: rest
                               /\ Forall (fun f => exists m, f = FMsg m) rest.
Proof. exact contact_first. Qed.
Print Assumptions C04_contact_first.

(* The form consumed by the channel lemma of C07. *)
Theorem C04_contact_first_map : forall (c : cfg) (ops : list op),
  let s := run c ops in
  sent s = [] \/ exists h ms, sent s = FContact h :: map FMsg ms.
Proof. exact contact_first_map. Qed.
Print Assumptions C04_contact_first_map.

Theorem C04_sess_term_once : forall (c : cfg) (ops : list op),
  let s := run c ops in
  (length (filter (fun f => match f with FMsg (MSessTerm _ _) => true | _ => false end) (sent s)) <= 1)%nat
  /\ (in_term s = true <-> exists fl r, In (FMsg (MSessTerm fl r)) (sent s)).
Proof. exact sess_term_once. Qed.
Print Assumptions C04_sess_term_once.

Theorem C04_no_start_after_term_partial : forall (c : cfg) (ops : list op),
  (forall k, let s := run c (firstn k ops) in in_sess s = true -> 0 < seg_size s) ->
  forall pre fl r post, sent (run c ops) = pre ++ FMsg (MSessTerm fl r) :: post ->
  Forall (fun f => match f with FMsg (MXferSeg flags _ _ _) => has_start flags = false | _ => True end) post.
Proof. exact no_start_after_term_partial. Qed.
Print Assumptions C04_no_start_after_term_partial.

Theorem C04_no_start_after_term_refuted :
  exists c ops pre fl r post, sent (run c ops) = pre ++ FMsg (MSessTerm fl r) :: post
    /\ ~ Forall (fun f => match f with FMsg (MXferSeg flags _ _ _) => has_start flags = false | _ => True end) post.
Proof. exact no_start_after_term_refuted. Qed.
Print Assumptions C04_no_start_after_term_refuted.

Theorem C04_pos_seg_from_inputs : forall (c : cfg) (ops : list op),
  0 < c_seg_init c ->
  Forall (fun f => match f with FMsg (MSessInit _ smru _ nid _) => 0 < smru /\ ascii nid = true | _ => True end)
         (handled (run c ops)) ->
  forall k, let s := run c (firstn k ops) in in_sess s = true -> 0 < seg_size s.
Proof. exact pos_seg_from_inputs. Qed.
Print Assumptions C04_pos_seg_from_inputs.

Theorem C04_no_start_after_term_inputs : forall (c : cfg) (ops : list op),
  0 < c_seg_init c ->
  Forall (fun f => match f with FMsg (MSessInit _ smru _ nid _) => 0 < smru /\ ascii nid = true | _ => True end)
         (handled (run c ops)) ->
  forall pre fl r post, sent (run c ops) = pre ++ FMsg (MSessTerm fl r) :: post ->
  Forall (fun f => match f with FMsg (MXferSeg flags _ _ _) => has_start flags = false | _ => True end) post.
Proof. exact no_start_after_term_inputs. Qed.
Print Assumptions C04_no_start_after_term_inputs.

Theorem C04_grammar_active_inputs : forall (c : cfg) (ops : list op), c_passive c = false ->
  0 < c_seg_init c ->
  Forall (fun f => match f with FMsg (MSessInit _ smru _ nid _) => 0 < smru /\ ascii nid = true | _ => True end)
         (handled (run c ops)) ->
  legal_prefix (sent (run c ops)) = true.
Proof. exact C04_grammar_active_inputs. Qed.
Print Assumptions C04_grammar_active_inputs.

Theorem C04_grammar_passive_inputs : forall (c : cfg) (ops : list op), c_passive c = true ->
  peer_coop (handled (run c ops)) -> 0 < c_seg_init c ->
  Forall (fun f => match f with FMsg (MSessInit _ smru _ nid _) => 0 < smru /\ ascii nid = true | _ => True end)
         (handled (run c ops)) ->
  legal_prefix (sent (run c ops)) = true.
Proof. exact C04_grammar_passive_inputs. Qed.
Print Assumptions C04_grammar_passive_inputs.

Theorem C04_sess_init_active : forall (c : cfg) (ops : list op), c_passive c = false ->
  let s := run c ops in
  (length (filter (fun f => match f with FMsg (MSessInit _ _ _ _ _) => true | _ => false end) (sent s)) <= 1)%nat
  /\ (forall f1 f2 rest, sent s = f1 :: f2 :: rest ->
        exists ka mru xm nid ext, f2 = FMsg (MSessInit ka mru xm nid ext))
  /\ (forall f1 f2 rest, sent s = f1 :: f2 :: rest ->
        length (filter (fun f => match f with FMsg (MSessInit _ _ _ _ _) => true | _ => false end) rest) = 0%nat).
Proof. exact sess_init_active. Qed.
Print Assumptions C04_sess_init_active.

Theorem C04_sess_init_passive : forall (c : cfg) (ops : list op), c_passive c = true ->
  let s := run c ops in
  length (filter (fun f => match f with FMsg (MSessInit _ _ _ _ _) => true | _ => false end) (sent s))
  = length (filter (fun f => match f with FMsg (MSessInit _ _ _ _ _) => true | _ => false end) (handled s))
  /\ (forall c0 ka mru xm nid ext hs, handled s = c0 :: FMsg (MSessInit ka mru xm nid ext) :: hs ->
      exists f1 ka' mru' xm' nid' ext' rest, sent s = f1 :: FMsg (MSessInit ka' mru' xm' nid' ext') :: rest).
Proof. exact sess_init_passive. Qed.
Print Assumptions C04_sess_init_passive.

Theorem C04_legal_prefix_spec : forall (l : list frame),
  legal_prefix l = true <-> exists l', legal (l ++ l') = true.
Proof. exact (legal_prefix_spec true). Qed.
Print Assumptions C04_legal_prefix_spec.

Theorem C04_grammar_active_weak : forall (c : cfg) (ops : list op),
  c_passive c = false -> legal_prefix_weak (sent (run c ops)) = true.
Proof. exact C04_grammar_active_weak. Qed.
Print Assumptions C04_grammar_active_weak.

Theorem C04_grammar_active_partial : forall (c : cfg) (ops : list op),
  c_passive c = false ->
  (forall k, let s := run c (firstn k ops) in in_sess s = true -> 0 < seg_size s) ->
  legal_prefix (sent (run c ops)) = true.
Proof. exact C04_grammar_active_partial. Qed.
Print Assumptions C04_grammar_active_partial.

Theorem C04_grammar_passive_weak : forall (c : cfg) (ops : list op),
  c_passive c = true -> peer_coop (handled (run c ops)) ->
  legal_prefix_weak (sent (run c ops)) = true.
Proof. exact C04_grammar_passive_weak. Qed.
Print Assumptions C04_grammar_passive_weak.

Theorem C04_grammar_passive_partial : forall (c : cfg) (ops : list op),
  c_passive c = true -> peer_coop (handled (run c ops)) ->
  (forall k, let s := run c (firstn k ops) in in_sess s = true -> 0 < seg_size s) ->
  legal_prefix (sent (run c ops)) = true.
Proof. exact C04_grammar_passive_partial. Qed.
Print Assumptions C04_grammar_passive_partial.

Theorem C04_pair_weak : forall (cA : cfg) (opsA : list op) (cB : cfg) (opsB : list op),
  c_passive cA = false -> c_passive cB = true ->
  (exists more, sent (run cA opsA) = handled (run cB opsB) ++ more) ->
  legal_prefix_weak (sent (run cA opsA)) = true /\ legal_prefix_weak (sent (run cB opsB)) = true.
Proof. exact C04_pair_weak. Qed.
Print Assumptions C04_pair_weak.

Theorem C04_pair_partial : forall (cA : cfg) (opsA : list op) (cB : cfg) (opsB : list op),
  c_passive cA = false -> c_passive cB = true ->
  (exists more, sent (run cA opsA) = handled (run cB opsB) ++ more) ->
  (forall k, let s := run cA (firstn k opsA) in in_sess s = true -> 0 < seg_size s) ->
  (forall k, let s := run cB (firstn k opsB) in in_sess s = true -> 0 < seg_size s) ->
  legal_prefix (sent (run cA opsA)) = true /\ legal_prefix (sent (run cB opsB)) = true.
Proof. exact C04_pair_partial. Qed.
Print Assumptions C04_pair_partial.

Theorem C04_seg_within_mru : forall (c : cfg) (ops : list op),
  let s := run c ops in
  (length (filter (fun f => match f with FMsg (MSessInit _ _ _ _ _) => true | _ => false end) (handled s)) <= 1)%nat ->
  forall p, sessinit_peer s = Some p ->
  Forall (fun f => match f with FMsg (MXferSeg _ _ _ data) => N.of_nat (length data) <= si_seg_mru p | _ => True end)
         (sent s).
Proof. exact seg_within_mru. Qed.
Print Assumptions C04_seg_within_mru.

Theorem C04_ack_echo : forall (c : cfg) (ops : list op),
  let s := run c ops in
  filter (fun f => match f with FMsg (MXferAck _ _ _) => true | _ => false end) (sent s)
  = map FMsg (ack_spec (handled s)).
Proof. exact ack_echo. Qed.
Print Assumptions C04_ack_echo.

Theorem C04_sent_wf : forall (c : cfg) (ops : list op),
  (c_keepalive c < 65536 /\ c_seg_mru c < 2^64 /\ N.of_nat (length (c_nodeid c)) < 65536 /\ wf_bytes (c_nodeid c)) ->
  Forall (fun o => match o with
                   | ORx d => wf_bytes d
                   | OTerm r => r < 256
                   | OSend d => wf_bytes d /\ N.of_nat (length d) < 2^64
                   | _ => True
                   end) ops ->
  1 + N.of_nat (length ops) <= 2^64 -> N.of_nat (rx_total ops) < 2^64 ->
  Forall wf_frame (sent (run c ops)).
Proof. exact sent_wf. Qed.
Print Assumptions C04_sent_wf.

Theorem C04_channel_closed : forall (cA : cfg) (opsA : list op) (cB : cfg) (opsB : list op),
  (exists rest, wire (run cA opsA) = TcpclChannelProofs.received (init cB) opsB ++ rest) ->
  cfg_ok cA -> Forall op_ok opsA ->
  1 + N.of_nat (length opsA) <= 2^64 -> N.of_nat (rx_total opsA) < 2^64 ->
  exists more, sent (run cA opsA) = handled (run cB opsB) ++ more.
Proof. exact channel_closed. Qed.
Print Assumptions C04_channel_closed.

Theorem C04_pair_closed : forall (cA : cfg) (opsA : list op) (cB : cfg) (opsB : list op),
  c_passive cA = false -> c_passive cB = true ->
  (exists rest, wire (run cA opsA) = TcpclChannelProofs.received (init cB) opsB ++ rest) ->
  cfg_ok cA -> Forall op_ok opsA ->
  1 + N.of_nat (length opsA) <= 2^64 -> N.of_nat (rx_total opsA) < 2^64 ->
  legal_prefix_weak (sent (run cA opsA)) = true /\ legal_prefix_weak (sent (run cB opsB)) = true.
Proof. exact C04_pair_closed. Qed.
Print Assumptions C04_pair_closed.

(* Non-vacuity of the hypotheses used above. *)
Definition exA : cfg := mkCfg false [100] 30 60 1000 2 None.
Definition exB : cfg := mkCfg true [101] 30 60 1000 2 None.
Definition CHo : bytes := encode_frame (FContact (mkContact MAGIC 4 0)).
Definition exOpsA : list op :=
  [OStart; ORx CHo; ORx (encode_frame (FMsg (MSessInit 30 2 1000 [101] []))); OSend [1;2;3]; OPQ; OTerm 0;
   OSend [4]; OPQ; ORx (encode_frame (FMsg (MXferSeg 3 7 [] [9;9])))].
Definition exOpsB : list op :=
  [OStart; ORx CHo; ORx (encode_frame (FMsg (MSessInit 30 1000 18446744073709551615 [100] [])));
   ORx (encode_frame (FMsg (MXferSeg 2 1 [0; 0; 1; 0; 8; 0; 0; 0; 0; 0; 0; 0; 3] [1;2])))].

(* frames are sent and octets reach the wire *)
Example C04_example_run :
  let s := run exA [OStart; OTxPump true 100; ORx CHo; OTxPump true 100] in
  length (sent s) = 2%nat /\ wire s <> [].
Proof. vm_compute. split; [reflexivity | discriminate]. Qed.

(* the positive-segment-size hypothesis holds on a run that sends SESS_TERM with a
   transfer in progress, segments and an acknowledgement *)
Example C04_partial_nonvacuous :
  forallb (fun k => let s := run exA (firstn k exOpsA) in negb (in_sess s) || (0 <? seg_size s)) (seq 0 10) = true
  /\ existsb (fun f => match f with FMsg (MSessTerm _ _) => true | _ => false end) (sent (run exA exOpsA)) = true
  /\ existsb (fun f => match f with FMsg (MXferAck _ _ _) => true | _ => false end) (sent (run exA exOpsA)) = true
  /\ legal_prefix (sent (run exA exOpsA)) = true.
Proof. vm_compute. repeat split; reflexivity. Qed.

(* the input hypotheses hold on that run *)
Example C04_inputs_nonvacuous :
  0 < c_seg_init exA
  /\ forallb (fun f => match f with FMsg (MSessInit _ smru _ nid _) => (0 <? smru) && ascii nid | _ => true end)
             (handled (run exA exOpsA)) = true
  /\ length (handled (run exA exOpsA)) = 3%nat.
Proof. vm_compute. repeat split; reflexivity. Qed.

(* a passive endpoint with a cooperating peer: one SESS_INIT handled, one sent;
   the handled frames are a prefix of what the active endpoint exA sends *)
Example C04_passive_nonvacuous :
  c_passive exB = true
  /\ length (handled (run exB exOpsB)) = 3%nat
  /\ (exists more, sent (run exA exOpsA) = handled (run exB exOpsB) ++ more)
  /\ length (filter (fun f => match f with FMsg (MSessInit _ _ _ _ _) => true | _ => false end)
                    (handled (run exB exOpsB))) = 1%nat
  /\ sessinit_peer (run exB exOpsB) <> None.
Proof.
  vm_compute. repeat split; try reflexivity; try discriminate.
  eexists. reflexivity.
Qed.

(* the bounds hold for that configuration and operation list; and, for a
   shorter run of the same endpoint (start and one write), a network that has
   delivered the six octets A wrote satisfies the network hypothesis *)
Example C04_bounds_nonvacuous :
  cfg_ok exA /\ Forall op_ok exOpsA
  /\ 1 + N.of_nat (length exOpsA) <= 2^64 /\ N.of_nat (rx_total exOpsA) < 2^64
  /\ (exists rest, wire (run exA [OStart; OTxPump true 100])
                   = TcpclChannelProofs.received (init exB) [OStart; ORx CHo] ++ rest).
Proof.
  split; [unfold cfg_ok; cbn; repeat split; try reflexivity; repeat constructor|].
  split; [repeat constructor|].
  split; [vm_compute; discriminate|]. split; [vm_compute; reflexivity|].
  exists []. vm_compute. reflexivity.
Qed.
