(** Ties of the hand-written TCPCL session model to what the translator
    regenerates from tcpcl/session.py and tcpcl/agent.py on every run: the
    session parameters and idle predicates (Gen/SessParams.v) with the clamp of
    the adaptive segment-size controller, the agent's shutdown loops
    (Gen/AgentLoops.v), the transfer-message handlers (Gen/TcpclHandlers.v),
    the control decisions (Gen/TcpclControl.v), the report loop of close
    (Gen/TcpclClose.v) and the segment producer (Gen/TcpclSendNext.v).  Used by
    the checks of C04, C09, C14 and C18. *)
From Coq Require Import List NArith Bool.
From RecordUpdate Require Import RecordSet.
From DTN Require Import Lib.Bytes Model.TcpclMsg Model.TcpclSess Model.TcpclHandlerSt
  Gen.SessParams Gen.AgentLoops Gen.TcpclHandlers Gen.TcpclControl Gen.TcpclClose Gen.TcpclSendNext
  Proofs.TcpclGenTie Proofs.TcpclAgentLoops Proofs.TcpclHandlerTie Proofs.TcpclHandlerTie3
  Proofs.TcpclHandlerTie2 Proofs.TcpclHandlerTie4 Proofs.TcpclHandlerTie5.
Import ListNotations RecordSetNotations.
Local Open Scope N_scope.

(** The model's idle predicate is the code's two is_sess_idle conjunctions. *)
Theorem Tie_idle_predicate : forall s,
  is_sess_idle s =
  gen_idle_handler (gen_idle_messenger (is_nil (rx_buf s)) (is_nil (msg_tx s)))
                   (none_b (rx_tmp s)) (none_b (tx_tmp s)) (is_nil (pend_start s)) (is_nil (pend_ack s)).
Proof. exact tie_idle. Qed.
Print Assumptions Tie_idle_predicate.

(** "Idle" as the code computes it means: nothing queued, in progress or
    awaiting acknowledgement, no received octets awaiting processing, nothing
    left to send at message level. *)
Theorem Tie_idle_sound : forall rx_empty tx_empty rx_tmp_none tx_tmp_none ps_empty pa_empty,
  gen_idle_handler (gen_idle_messenger rx_empty tx_empty) rx_tmp_none tx_tmp_none ps_empty pa_empty = true ->
  rx_empty = true /\ tx_empty = true /\ rx_tmp_none = true /\ tx_tmp_none = true /\ ps_empty = true /\ pa_empty = true.
Proof.
  intros a b c d e f. unfold gen_idle_handler, gen_idle_messenger.
  destruct a, b, c, d, e, f; cbn; intros H; try discriminate H; repeat split; reflexivity.
Qed.
Print Assumptions Tie_idle_sound.

Theorem Tie_close_when_terminating : forall s,
  check_sess_term s = if gen_close_when (in_term s) (is_sess_idle s) then do_close s else s.
Proof. exact tie_check_sess_term. Qed.
Print Assumptions Tie_close_when_terminating.

Theorem Tie_refill_trigger : forall buf_use s,
  send_buffer_decreased buf_use s = if gen_buf_trigger buf_use (seg_size s) then pq_trigger s else s.
Proof. exact tie_send_buffer_decreased. Qed.
Print Assumptions Tie_refill_trigger.

Theorem Tie_negotiation : forall s s' this peer,
  sessinit_this s = Some this -> sessinit_peer s = Some peer ->
  merge_session_params s = (s', None) ->
  keepalive_time s' = gen_keepalive (si_keepalive this) (si_keepalive peer)
  /\ seg_size s' = gen_seg_size (c_seg_init (cf s)) (si_seg_mru peer).
Proof. exact tie_merge. Qed.
Print Assumptions Tie_negotiation.

(** Whatever the adaptive controller computes, the clamp the code applies
    keeps the segment size within the peer's segment MRU. *)
Theorem C14_clamp_le_mru : forall next floor mru, gen_clamp next floor mru <= mru.
Proof. exact clamp_le_mru. Qed.
Print Assumptions C14_clamp_le_mru.

Theorem C14_initial_seg_le_mru : forall init mru, gen_seg_size init mru <= mru.
Proof. exact seg_size_le_mru. Qed.
Print Assumptions C14_initial_seg_le_mru.

Theorem C14_keepalive_is_min : forall a b, gen_keepalive a b = N.min a b.
Proof. exact keepalive_is_min. Qed.
Print Assumptions C14_keepalive_is_min.

(** Agent.shutdown() and Agent.stop() walk a snapshot of the handler list
    (regenerated from tcpcl/agent.py): every session is asked to terminate /
    is closed, although closing a handler removes it from the live list. *)
Theorem C09_agent_shutdown_walks_snapshot : shutdown_iterates_snapshot = true /\ stop_iterates_snapshot = true.
Proof. split; reflexivity. Qed.
Print Assumptions C09_agent_shutdown_walks_snapshot.

Theorem C09_snapshot_visits_every_handler : forall (H : Type) (l : list H) (h : H), In h l -> In h (walk_snapshot H l).
Proof. exact snapshot_visits_all. Qed.
Print Assumptions C09_snapshot_visits_every_handler.

Theorem C09_live_iteration_skips_refuted : exists (l : list nat) (closes : nat -> bool) (h : nat),
  In h l /\ ~ In h (walk_live nat closes (length l) 0 l).
Proof. exact live_skips. Qed.
Print Assumptions C09_live_iteration_skips_refuted.

(** The transfer-message handlers of ContactHandler (recv_xfer_ack,
    recv_xfer_refuse, recv_sess_term, with the Messenger base guards they call
    first and _tx_teardown), regenerated from tcpcl/session.py on every run
    (Gen/TcpclHandlers.v over the abstract handler state of
    Model/TcpclHandlerSt.v): for every endpoint state [s], the model's handling
    of the message agrees with the generated function on the abstraction
    [habs s] -- reject-or-handled outcome, every field of the abstract state
    (session flags, transmit map with the acknowledged lengths, the queue of
    unstarted transfers, the set awaiting the final acknowledgement, the
    transfer in progress, its offset, the pending queue run), the D-Bus signals
    emitted in order ([h_events]; the model's trace may only add the state
    change of its own SESS_TERM reply before and the socket-closed event after,
    the latter only if _check_sess_term() was called). *)

Theorem Tie_recv_xfer_ack : forall (s : ep) (fl xid len : N),
  let g := gen_recv_xfer_ack xid fl len (habs s) in
  let r := handle_msg (MXferAck fl xid len) s in
  snd g = outcome_code (snd r)
  /\ h_in_sess (fst g) = in_sess (fst r) /\ h_in_conn (fst g) = in_conn (fst r)
  /\ h_tx_map (fst g) = tx_map (fst r)
  /\ h_pend_start (fst g) = map (fun it => (fst it, None)) (pend_start (fst r))
  /\ h_pend_ack (fst g) = pend_ack (fst r)
  /\ h_tx_tmp (fst g) = match tx_tmp (fst r) with Some (i, _) => Some i | None => None end
  /\ h_tx_len (fst g) = tx_len (fst r) /\ h_pq (fst g) = pq_set (fst r)
  /\ (exists tail, trace (fst r) = trace s ++ h_events (fst g) ++ tail
                   /\ (tail = [] \/ (tail = [EClosed] /\ h_check (fst g) = true)))
  /\ (h_check (fst g) = false -> closed (fst r) = closed s).
Proof. exact tie_xfer_ack. Qed.
Print Assumptions Tie_recv_xfer_ack.

Theorem Tie_recv_xfer_refuse : forall (s : ep) (reason xid : N),
  let g := gen_recv_xfer_refuse xid reason (habs s) in
  let r := handle_msg (MXferRefuse reason xid) s in
  snd g = outcome_code (snd r)
  /\ h_in_sess (fst g) = in_sess (fst r) /\ h_in_conn (fst g) = in_conn (fst r)
  /\ h_tx_map (fst g) = tx_map (fst r)
  /\ h_pend_start (fst g) = map (fun it => (fst it, None)) (pend_start (fst r))
  /\ h_pend_ack (fst g) = pend_ack (fst r)
  /\ h_tx_tmp (fst g) = match tx_tmp (fst r) with Some (i, _) => Some i | None => None end
  /\ h_tx_len (fst g) = tx_len (fst r) /\ h_pq (fst g) = pq_set (fst r)
  /\ (exists tail, trace (fst r) = trace s ++ h_events (fst g) ++ tail
                   /\ (tail = [] \/ (tail = [EClosed] /\ h_check (fst g) = true)))
  /\ (h_check (fst g) = false -> closed (fst r) = closed s).
Proof. exact tie_xfer_refuse. Qed.
Print Assumptions Tie_recv_xfer_refuse.

Theorem Tie_recv_sess_term : forall (s : ep) (fl reason : N),
  let g := gen_recv_sess_term reason (habs s) in
  let r := handle_msg (MSessTerm fl reason) s in
  snd g = outcome_code (snd r)
  /\ h_in_sess (fst g) = in_sess (fst r) /\ h_in_conn (fst g) = in_conn (fst r)
  /\ h_tx_map (fst g) = tx_map (fst r)
  /\ h_pend_start (fst g) = map (fun it => (fst it, None)) (pend_start (fst r))
  /\ h_pend_ack (fst g) = pend_ack (fst r)
  /\ h_tx_tmp (fst g) = match tx_tmp (fst r) with Some (i, _) => Some i | None => None end
  /\ h_tx_len (fst g) = tx_len (fst r) /\ h_pq (fst g) = pq_set (fst r)
  /\ (exists t1 tail, trace (fst r) = trace s ++ t1 ++ h_events (fst g) ++ tail
                      /\ (t1 = [] \/ t1 = [ESig SigState [PStr ST_ENDING]])
                      /\ (tail = [] \/ (tail = [EClosed] /\ h_check (fst g) = true)))
  /\ (h_check (fst g) = false -> closed (fst r) = closed s).
Proof. exact tie_sess_term. Qed.
Print Assumptions Tie_recv_sess_term.

(* Non-vacuity: on a reachable state with a transfer awaiting its final
   acknowledgement the generated handler accepts the END acknowledgement, emits
   the finished signal and asks for the termination check. *)
Example Tie_handlers_nonvacuous :
  let s := run (mkCfg false [100] 30 60 1000 500 None)
               [OStart; ORx (encode_frame (FContact (mkContact MAGIC 4 0)));
                ORx (encode_frame (FMsg (MSessInit 30 100 1000 [101] []))); OSend [1;2;3]; OPQ] in
  let g := gen_recv_xfer_ack 1 3 3 (habs s) in
  pend_ack s = [1] /\ snd g = None /\ h_pend_ack (fst g) = [] /\ h_check (fst g) = true
  /\ h_events (fst g) = [ESig SigSendFinished [PStrNum 1; PInt 3; PStr RES_SUCCESS]].
Proof. vm_compute. repeat split; reflexivity. Qed.

(** XFER_SEGMENT: ContactHandler.recv_xfer_data (with the base guard, _rx_setup
    and _rx_teardown); the octet string of the segment is represented by its
    length, the transfer being received by (id, octets received so far), the
    received bundles by (id, length); [h_sent] are the XFER_ACKs handed to
    send_message. *)
Theorem Tie_recv_xfer_data : forall (s : ep) (fl xid : N) (ext data : bytes),
  let g := gen_recv_xfer_data xid fl (N.of_nat (length data)) 0 (habs s) in
  let r := handle_msg (MXferSeg fl xid ext data) s in
  snd g = outcome_code (snd r)
  /\ h_in_sess (fst g) = in_sess (fst r) /\ h_in_conn (fst g) = in_conn (fst r)
  /\ h_rx_tmp (fst g) = match rx_tmp (fst r) with Some (i, a) => Some (i, N.of_nat (length a)) | None => None end
  /\ h_rx_map (fst g) = map (fun it => (fst it, N.of_nat (length (snd it)))) (rx_map (fst r))
  /\ sent (fst r) = sent s ++ map FMsg (h_sent (fst g))
  /\ h_tx_map (fst g) = tx_map (fst r) /\ h_pend_ack (fst g) = pend_ack (fst r)
  /\ h_tx_len (fst g) = tx_len (fst r) /\ h_pq (fst g) = pq_set (fst r)
  /\ (exists tail, trace (fst r) = trace s ++ h_events (fst g) ++ tail
                   /\ (tail = [] \/ (tail = [EClosed] /\ h_check (fst g) = true)))
  /\ (h_check (fst g) = false -> closed (fst r) = closed s).
Proof. exact tie_xfer_data. Qed.
Print Assumptions Tie_recv_xfer_data.

(** Control structure (Gen/TcpclControl.v): each model function is the decision
    regenerated from the code followed by the corresponding model action. *)

(** ContactHandler._process_queue up to the point where a segment is produced:
    wait for the session (keep the idle source) / nothing to do / start the
    transfer at the head of the queue / go on with the transfer in progress --
    a transfer in progress goes on whatever _in_sess and _in_term say. *)
Theorem Tie_process_queue_guards : forall s : ep,
  process_queue s =
  match gen_pq_guard (is_none (tx_tmp s)) (in_sess s) (in_term s) (is_nil (pend_start s)) with
  | PqReturn keep => (s <| pq_set := false |>, keep)
  | PqContinue => (send_next (s <| pq_set := false |>), false)
  | PqStart =>
      match pend_start s with
      | (id, data) :: rest =>
          (send_next (emit (ESig SigSendStarted [PStrNum id; PInt (N.of_nat (length data))])
                           (s <| pq_set := false |> <| pend_start := rest |> <| tx_tmp := Some (id, data) |>
                              <| tx_len := 0 |>)), false)
      | [] => (s <| pq_set := false |>, false)
      end
  end.
Proof. exact tie_process_queue. Qed.
Print Assumptions Tie_process_queue_guards.

(** Messenger._idle_timeout when the timer fires on an open endpoint. *)
Theorem Tie_idle_timeout : forall (s : ep) (due : N),
  closed s = false -> idle_due s = Some due -> (due <=? now s) = true ->
  step s OFireIdle =
  match gen_idle_timeout (in_sess s) (in_term s) (is_sess_idle s) with
  | IdleClose => do_close (s <| idle_due := None |>)
  | IdleTerm reason reply => escape (send_sess_term reason reply (s <| idle_due := None |>))
  | IdleNothing => s <| idle_due := None |>
  end.
Proof. exact tie_idle_timeout. Qed.
Print Assumptions Tie_idle_timeout.

(** ContactHandler.terminate. *)
Theorem Tie_terminate : forall (s : ep) (reason : N), closed s = false ->
  step s (OTerm reason) =
  match gen_terminate reason (in_sess s) (in_term s) (is_sess_idle s) with
  | TermClose => do_close s
  | TermSend r reply => escape (send_sess_term r reply s)
  | TermNothing => s
  end.
Proof. exact tie_terminate. Qed.
Print Assumptions Tie_terminate.

(** The loop of Messenger.recv_raw goes on while octets are buffered AND the
    socket is open: nothing buffered behind a message that closed the
    connection is parsed. *)
Theorem Tie_recv_raw_loop : forall (fuel : nat) (s : ep),
  recv_loop (S fuel) s =
  if gen_rx_loop_guard (negb (is_nil (rx_buf s))) (negb (closed s)) then
    match parse_frame (in_conn s) (rx_buf s) with
    | None => ok s
    | Some (fr, rest) =>
        match recv_frame fr (s <| rx_buf := rest |> <| handled := handled s ++ [fr] |>) with
        | (s', None) => recv_loop fuel s'
        | (s', Some k) => raise k s'
        end
    end
  else ok s.
Proof. exact tie_rx_loop. Qed.
Print Assumptions Tie_recv_raw_loop.

(** Messenger.send_sess_term: the two RuntimeError guards, _in_term, the state
    change and the REPLY flag. *)
Theorem Tie_send_sess_term : forall (reason : N) (reply : bool) (s : ep),
  send_sess_term reason reply s =
  if gen_sst_raises (in_sess s) (in_term s) then raise EX_RUNTIME s
  else ok (send_msg (MSessTerm (gen_sst_flags reply) reason) (set_state ST_ENDING (s <| in_term := true |>))).
Proof. exact tie_send_sess_term. Qed.
Print Assumptions Tie_send_sess_term.

(** The SESS_TERM branch of Messenger.recv_message: reject outside a session,
    reply unless already terminating, then the handler. *)
Theorem Tie_sess_term_dispatch : forall (fl reason : N) (s : ep),
  handle_msg (MSessTerm fl reason) s =
  if gen_term_reject (in_sess s) (in_term s) then (s, Reject REJ_UNEXPECTED)
  else
    let '(s1, exc) := if gen_term_reply (in_sess s) (in_term s) then send_sess_term reason true s else (s, None) in
    match exc with
    | Some k => (s1, Escaped k)
    | None => (check_sess_term (flush_pend_start s1), Done)
    end.
Proof. exact tie_term_dispatch. Qed.
Print Assumptions Tie_sess_term_dispatch.

(** send_bundle_data -> ContactHandler._add_queue_item: the refusal guard. *)
Theorem Tie_send_bundle : forall (s : ep) (data : bytes), closed s = false ->
  step s (OSend data) =
  if gen_add_queue_refused (in_sess s) (in_term s) then emit (EExc EX_RUNTIME) s
  else
    emit (ERet 1 (PStrNum (next_id s)))
         (pq_trigger (s <| next_id := next_id s + 1 |> <| pend_start := pend_start s ++ [(next_id s, data)] |>
                        <| tx_map := dict_set (next_id s) 0 (tx_map s) |>)).
Proof. exact tie_send_bundle. Qed.
Print Assumptions Tie_send_bundle.

(** ContactHandler.close: the report loop at its head (Gen/TcpclClose.v; it must
    be followed by exactly the removal from the bus and Messenger.close).  A
    close that takes effect empties the queue of unstarted transfers, removes
    each from the transmit map and emits its SigSendFinished [id; 0; "session
    terminating"], in queue order, BEFORE the socket-closed event; nothing else
    of the abstract handler state changes and nothing is sent. *)
Theorem Tie_close_reports : forall s : ep, closed s = false ->
  let g := gen_close_flush (habs s) in
  closed (do_close s) = true
  /\ h_pend_start g = map (fun it => (fst it, None)) (pend_start (do_close s))
  /\ h_tx_map g = tx_map (do_close s)
  /\ trace (do_close s) = trace s ++ h_events g ++ [EClosed]
  /\ h_in_sess g = in_sess (do_close s) /\ h_in_conn g = in_conn (do_close s)
  /\ h_pend_ack g = pend_ack (do_close s)
  /\ h_tx_tmp g = match tx_tmp (do_close s) with Some (i, _) => Some i | None => None end
  /\ h_tx_len g = tx_len (do_close s) /\ h_pq g = pq_set (do_close s)
  /\ h_sent g = [] /\ sent (do_close s) = sent s /\ h_check g = false.
Proof. exact tie_close_reports. Qed.
Print Assumptions Tie_close_reports.

(* Non-vacuity: two queued, unstarted bundles are reported in queue order. *)
Example Tie_close_nonvacuous :
  let s := run (mkCfg false [100] 30 60 1000 500 None) [OStart; OSend [1;2;3]; OSend [4]] in
  closed s = false
  /\ h_events (gen_close_flush (habs s))
     = [ESig SigSendFinished [PStrNum 1; PInt 0; PStr RES_TERMINATING];
        ESig SigSendFinished [PStrNum 2; PInt 0; PStr RES_TERMINATING]]
  /\ h_tx_map (gen_close_flush (habs s)) = [].
Proof. vm_compute. repeat split; reflexivity. Qed.

(** The segment-producing part of ContactHandler._process_queue (Gen/TcpclSendNext.v):
    for every state with a transfer in progress, one pass of the model's
    [send_next] does what the generated function says for (segment size in use,
    offset, total length): nothing while waiting for the final acknowledgement;
    otherwise it sends XFER_SEGMENT with the generated flags (START on the first
    segment, END when the data is exhausted, both for a zero-length bundle), the
    transfer-length extension item on the first segment, the next [so_dlen]
    octets from the offset, advances the offset to [so_newlen], and at END moves
    the item to the set awaiting the final acknowledgement, clears the transfer
    in progress and requests a queue run. *)
Theorem Tie_send_next : forall (s : ep) (id : N) (data : bytes), tx_tmp s = Some (id, data) ->
  send_next s =
  match gen_send_next (seg_size s) (tx_len s) (N.of_nat (length data)) true false with
  | None => s
  | Some o =>
      let seg := firstn (N.to_nat (so_dlen o)) (skipn (N.to_nat (tx_len s)) data) in
      let ext := match so_ext_total o with Some t => total_length_ext t | None => [] end in
      let s1 := send_msg (MXferSeg (so_flags o) id ext seg) (s <| tx_len := so_newlen o |>) in
      if so_moved o
      then pq_trigger (s1 <| pend_ack := pend_ack s1 ++ [id] |> <| tx_tmp := None |> <| tx_len := 0 |>)
      else s1
  end.
Proof. exact tie_send_next. Qed.
Print Assumptions Tie_send_next.

Theorem Tie_send_next_switches : forall (sz off total : N) (o : seg_out),
  gen_send_next sz off total true false = Some o -> so_priv o = false /\ so_unack o = false.
Proof. exact tie_send_next_switches. Qed.
Print Assumptions Tie_send_next_switches.

(* Non-vacuity: 3 octets, segment size 2: START with 2 octets, then END with 1;
   a zero-length bundle goes out as one START|END segment. *)
Example Tie_send_next_nonvacuous :
  option_map (fun o => (so_flags o, so_dlen o, so_newlen o, so_moved o)) (gen_send_next 2 0 3 true false)
    = Some (2, 2, 2, false)
  /\ option_map (fun o => (so_flags o, so_dlen o, so_newlen o, so_moved o)) (gen_send_next 2 2 3 true false)
    = Some (1, 1, 3, true)
  /\ option_map (fun o => (so_flags o, so_dlen o, so_newlen o, so_moved o)) (gen_send_next 2 0 0 true false)
    = Some (3, 0, 0, true)
  /\ gen_send_next 2 3 3 true false = None.
Proof. vm_compute. repeat split; reflexivity. Qed.
