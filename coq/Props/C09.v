(* C09 -- session termination (safety clauses).

   Model: Model/TcpclSess.v.  All theorems hold for every configuration and
   every operation list (arbitrary received octets included).

   C09_one_term          at most one SESS_TERM is ever sent, and [in_term] says
                         whether one was;
   C09_term_flags        in one operation: a SESS_TERM sent while handling
                         received data carries the REPLY flag (flags = 1); one
                         sent by terminate() (OTerm r) has flags 0 and reason r;
                         one sent by the idle timeout has flags 0 and reason 1;
                         no other operation sends one;
   C09_no_new_transfer_partial / _refuted
                         no START segment follows the SESS_TERM -- FALSE
                         unconditionally (segment size 0: the code repeats empty
                         START segments for ever), proved when the segment size
                         in use is positive, which follows from
                         1 <= segment_size_tx_initial and every handled SESS_INIT
                         announcing a segment MRU >= 1 and an ASCII node id
                         (C09_no_new_transfer_inputs; see C04.v);
   C09_unstarted_reported when a SESS_TERM is handled in session, the queue of
                         not-yet-started transfers is emptied and each of them
                         gets SigSendFinished [id; 0; "session terminating"];
   C09_send_refused_when_terminating  on an open endpoint that is terminating,
                         send_bundle_data raises (RuntimeError to the caller)
                         and changes nothing else: nothing is queued, so nothing
                         can be left unreported;
   C09_no_queue_growth_when_terminating  once terminating, no operation makes
                         the queue of unstarted transfers longer;
   C09_close_reports_unstarted  a close that takes effect (close(), terminate()
                         before the session exists, end of stream, send error,
                         bad contact header, _check_sess_term) empties the queue
                         of unstarted transfers, removes them from the transmit
                         map and emits SigSendFinished [id; 0; "session
                         terminating"] for each, before the socket-closed event;
   C09_closed_nothing_unstarted_unreported  in every reachable closed state that
                         queue is empty and every id returned by send_bundle_data
                         has a SigSendFinished or is in the transmit map (started);
   C09_closed_is_final   once the socket is closed, no operation changes
                         anything but the clock.

   C09_queued_never_dropped  after any run, every transfer id returned by
                         send_bundle_data is still in the transmit map (queued,
                         in progress or awaiting its final acknowledgement) or a
                         SigSendFinished signal was emitted for it. *)
From Coq Require Import List NArith Bool.
From RecordUpdate Require Import RecordSet.
Import ListNotations RecordSetNotations.
From DTN Require Import Lib.Bytes Model.TcpclMsg Model.TcpclSess Proofs.TcpclSessBasics Proofs.TcpclSentProofs.
From DTN Require Proofs.TcpclSessSpec.
Local Open Scope N_scope.

Theorem C09_one_term : forall (c : cfg) (ops : list op),
  let s := run c ops in
  (length (filter (fun f => match f with FMsg (MSessTerm _ _) => true | _ => false end) (sent s)) <= 1)%nat
  /\ (in_term s = true <-> exists fl r, In (FMsg (MSessTerm fl r)) (sent s)).
Proof. exact sess_term_once. Qed.
Print Assumptions C09_one_term.

Theorem C09_term_flags : forall (s : ep) (o : op),
  exists suf, sent (step s o) = sent s ++ suf
  /\ Forall (fun f => match f with
                      | FMsg (MSessTerm fl r) =>
                          match o with
                          | ORx _ => fl = 1
                          | OTerm r' => fl = 0 /\ r = r'
                          | OFireIdle => fl = 0 /\ r = 1
                          | _ => False
                          end
                      | _ => True
                      end) suf.
Proof. exact term_flags. Qed.
Print Assumptions C09_term_flags.

Theorem C09_no_new_transfer_partial : forall (c : cfg) (ops : list op),
  (forall k, let s := run c (firstn k ops) in in_sess s = true -> 0 < seg_size s) ->
  forall pre fl r post, sent (run c ops) = pre ++ FMsg (MSessTerm fl r) :: post ->
  Forall (fun f => match f with FMsg (MXferSeg flags _ _ _) => has_start flags = false | _ => True end) post.
Proof. exact no_start_after_term_partial. Qed.
Print Assumptions C09_no_new_transfer_partial.

Theorem C09_no_new_transfer_inputs : forall (c : cfg) (ops : list op),
  0 < c_seg_init c ->
  Forall (fun f => match f with FMsg (MSessInit _ smru _ nid _) => 0 < smru /\ ascii nid = true | _ => True end)
         (handled (run c ops)) ->
  forall pre fl r post, sent (run c ops) = pre ++ FMsg (MSessTerm fl r) :: post ->
  Forall (fun f => match f with FMsg (MXferSeg flags _ _ _) => has_start flags = false | _ => True end) post.
Proof. exact no_start_after_term_inputs. Qed.
Print Assumptions C09_no_new_transfer_inputs.

Theorem C09_no_new_transfer_refuted :
  exists c ops pre fl r post, sent (run c ops) = pre ++ FMsg (MSessTerm fl r) :: post
    /\ ~ Forall (fun f => match f with FMsg (MXferSeg flags _ _ _) => has_start flags = false | _ => True end) post.
Proof. exact no_start_after_term_refuted. Qed.
Print Assumptions C09_no_new_transfer_refuted.

Theorem C09_unstarted_reported : forall (fl r : N) (s : ep), in_sess s = true ->
  let s' := fst (handle_msg (MSessTerm fl r) s) in
  pend_start s' = []
  /\ exists t1 t2, trace s' = trace s ++ t1
        ++ map (fun it => ESig SigSendFinished [PStrNum (fst it); PInt 0; PStr RES_TERMINATING]) (pend_start s)
        ++ t2.
Proof. exact unstarted_reported. Qed.
Print Assumptions C09_unstarted_reported.

Theorem C09_queued_never_dropped : forall (c : cfg) (ops : list op),
  let s := run c ops in
  forall id, In (ERet 1 (PStrNum id)) (trace s) ->
    In id (map fst (tx_map s)) \/ exists args, In (ESig SigSendFinished (PStrNum id :: args)) (trace s).
Proof. exact queued_never_dropped. Qed.
Print Assumptions C09_queued_never_dropped.

Theorem C09_send_refused_when_terminating : forall (s : ep) (data : bytes),
  closed s = false -> in_term s = true ->
  step s (OSend data) = emit (EExc EX_RUNTIME) s.
Proof. exact TcpclSessSpec.send_terminating. Qed.
Print Assumptions C09_send_refused_when_terminating.

Theorem C09_no_queue_growth_when_terminating : forall (s : ep) (o : op), in_term s = true ->
  (length (pend_start (step s o)) <= length (pend_start s))%nat.
Proof. exact pend_start_never_grows_when_terminating. Qed.
Print Assumptions C09_no_queue_growth_when_terminating.

Theorem C09_close_reports_unstarted : forall s : ep, closed s = false ->
  pend_start (do_close s) = []
  /\ tx_map (do_close s) = fold_left (fun m it => dict_del (fst it) m) (pend_start s) (tx_map s)
  /\ trace (do_close s)
     = trace s ++ map (fun it => ESig SigSendFinished [PStrNum (fst it); PInt 0; PStr RES_TERMINATING]) (pend_start s)
               ++ [EClosed]
  /\ closed (do_close s) = true.
Proof. exact close_reports_unstarted. Qed.
Print Assumptions C09_close_reports_unstarted.

Theorem C09_closed_nothing_unstarted_unreported : forall (c : cfg) (ops : list op),
  let s := run c ops in
  closed s = true ->
  pend_start s = []
  /\ forall id, In (ERet 1 (PStrNum id)) (trace s) ->
       (exists args, In (ESig SigSendFinished (PStrNum id :: args)) (trace s))
       \/ (In id (map fst (tx_map s)) /\ ~ In id (map fst (pend_start s))).
Proof. exact closed_nothing_unstarted_unreported. Qed.
Print Assumptions C09_closed_nothing_unstarted_unreported.

Theorem C09_closed_is_final : forall (s : ep) (o : op), closed s = true ->
  step s o = match o with OAdvance dt => s <| now := now s + dt |> | _ => s end.
Proof. exact step_closed. Qed.
Print Assumptions C09_closed_is_final.

(* Non-vacuity: a reachable open, terminating state in which a send is refused. *)
Example C09_example_refused :
  let s := run (mkCfg false [100] 30 60 1000 500 None)
               [OStart; ORx (encode_frame (FContact (mkContact MAGIC 4 0)));
                ORx (encode_frame (FMsg (MSessInit 30 100 1000 [100] []))); OSend [1;2;3]; OTerm 0] in
  closed s = false /\ in_term s = true /\ pend_start (step s (OSend [4])) = pend_start s
  /\ tx_map (step s (OSend [4])) = tx_map s.
Proof. vm_compute. repeat split; reflexivity. Qed.

(* Non-vacuity: closing with a queued, unstarted bundle (before the session
   exists) reports it. *)
Example C09_example_close_reports :
  let s := run (mkCfg false [100] 30 60 1000 500 None) [OStart; OSend [1;2;3]; OClose] in
  closed s = true /\ pend_start s = []
  /\ In (ESig SigSendFinished [PStrNum 1; PInt 0; PStr RES_TERMINATING]) (trace s).
Proof. vm_compute. repeat split; auto. Qed.

(* Non-vacuity: a reachable closed state; a reachable state in session with a
   queued, unstarted transfer (the hypothesis of C09_unstarted_reported, about
   any SESS_TERM then handled). *)
Example C09_example_closed :
  closed (run (mkCfg false [100] 30 60 1000 500 None) [OStart; OClose]) = true.
Proof. reflexivity. Qed.

Example C09_example_unstarted :
  let s := run (mkCfg false [100] 30 60 1000 500 None)
               [OStart; ORx (encode_frame (FContact (mkContact MAGIC 4 0)));
                ORx (encode_frame (FMsg (MSessInit 30 100 1000 [100] []))); OSend [1;2;3]] in
  in_sess s = true /\ length (pend_start s) = 1%nat.
Proof. vm_compute. split; reflexivity. Qed.
