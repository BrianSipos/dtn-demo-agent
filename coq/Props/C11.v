(** Property C11 - Forwarding preserves the bundle and updates only the hop-by-hop blocks.

    "A forwarded bundle leaves the node with its primary block fields (version, flags, destination, source,
     report-to, creation timestamp, lifetime) and payload unchanged, exactly one Previous Node block naming
     this node, every Hop Count block's count one greater than received, at most one Bundle Age block whose
     age reflects time since creation, unique block numbers with the payload block numbered 1 and last, and
     valid CRCs.  The bytes actually transmitted, not just the in-memory objects, show these values."

    Model: [Model/BpFwd.v] ([do_fwd node now b] = what [_do_fwd] + [send_bundle] make of the received bundle
    [b] at clock [now]; [encode_bundle (do_fwd node now b)] = the octets handed to the convergence layer;
    [recv_fwd] = the whole path from the CL callback), tied to /repo on every run by harness/check_C11.py.
    Every statement below is about [w] with  decode_bundle (encode_bundle (do_fwd node now b)) = Some w :
    the OCTETS, decoded again.

    Common hypothesis [fwd_inb node now b = true] (boolean, [Model/BpFwd.v]): field ranges of the received
    bundle (as [recv_bundle] lets it through), distinct block numbers none of which is 0 (otherwise the
    container raises out of the CL callback and nothing is forwarded: [C11_duplicate_numbers_not_forwarded]),
    fewer than 2^32 blocks, hop counts below 2^64-1, no hop-count block without data, clock below 2^64, a
    well-formed node ID.  [ex_bundle_hyps] shows a bundle with one block of each kind satisfying it and every
    other guard used here.

    Proved at full strength:
      C11_wire_decodes, C11_forwarded_in_any_process_state, C11_hop_count, C11_block_numbers_unique,
      C11_payload_last_num1, C11_crcs_valid, C11_other_blocks_untouched, C11_primary_characterised.
    [_partial] + [_refuted] pairs (the faithful model of the unchanged code violates the full statement; the
    guard of the partial theorem excludes exactly the refuting class; witnesses replayed on the real agent
    by the check, harness/corpus/C11_*.json):
      primary block unchanged   - refuted for a received creation time 0, a received lifetime 0
                                  ([_apply_primary] is applied to forwarded bundles) and for an EID with
                                  '?' / '#' in a CRC-less primary block (text conversion, the C02 class);
      payload unchanged         - refuted for a forwarded status report whose subject EID has '?' / '#';
      exactly one previous node - refuted when a received type-6 block's data does not dissect (it stays);
      at most one bundle age    - refuted when a received type-7 block's data does not dissect;
      age = now - creation      - refuted when the creation time is ahead of the local clock (the age is
                                  encoded as a NEGATIVE CBOR integer). *)
From Coq Require Import List NArith ZArith Bool.
From DTN Require Import Lib.Bytes Lib.Cbor Model.Bundle Model.BpFwd Gen.FwdSteps Proofs.BpFwdProofs Proofs.BpFwdTie.
Import ListNotations.
Local Open Scope N_scope.

(** the transmitted octets decode, with the independent-codec model of C02, to the forwarded bundle *)
Theorem C11_wire_decodes : forall (node : eid) (now : N) (b : bundle),
  fwd_inb node now b = true ->
  decode_bundle (encode_bundle (do_fwd node now b)) = Some (do_fwd node now b).
Proof. exact c11_wire. Qed.
Print Assumptions C11_wire_decodes.

(** the agent hands exactly these octets to the CL, whatever it forwarded before (no process state) *)
Theorem C11_forwarded_in_any_process_state : forall (node : eid) (now : N) (bs : bytes) (b : bundle),
  decode_bundle bs = Some b -> fwd_inb node now b = true -> recv_crc_ok b = true ->
  eid_eqb (src (prim b)) node = false ->
  recv_fwd node now bs = RxSent (encode_bundle (do_fwd node now b)).
Proof. exact recv_fwd_sent. Qed.
Print Assumptions C11_forwarded_in_any_process_state.

(** FULL STATEMENT (refuted below): under [fwd_inb] alone, all ten fields of [w] equal those of [b]. *)
Theorem C11_primary_unchanged_partial : forall (node : eid) (now : N) (b w : bundle),
  fwd_inb node now b = true ->
  eids_stableb (prim b) = true ->              (* no EID is changed by the text conversion (C02 class) *)
  (create_time (prim b) =? 0) = false ->       (* creation time not 0 *)
  (lifetime (prim b) =? 0) = false ->          (* lifetime not 0 *)
  decode_bundle (encode_bundle (do_fwd node now b)) = Some w ->
  version (prim w) = version (prim b) /\ flags (prim w) = flags (prim b) /\
  crc_type (prim w) = crc_type (prim b) /\
  dest (prim w) = dest (prim b) /\ src (prim w) = src (prim b) /\ report_to (prim w) = report_to (prim b) /\
  create_time (prim w) = create_time (prim b) /\ create_seq (prim w) = create_seq (prim b) /\
  lifetime (prim w) = lifetime (prim b) /\ frag (prim w) = frag (prim b).
Proof. intros node now b w Hb He Ht Hl Hw. rewrite (c11_w node now b Hb w Hw). exact (fwd_primary_unchanged node now b He Ht Hl). Qed.
Print Assumptions C11_primary_unchanged_partial.

(** what the primary block on the wire is, in every case: the received one with the EIDs through the text
    conversion, a zero creation time replaced by (now, 0), a zero lifetime by 3 600 000, CRC recomputed *)
Theorem C11_primary_characterised : forall (node : eid) (now : N) (b w : bundle),
  fwd_inb node now b = true ->
  decode_bundle (encode_bundle (do_fwd node now b)) = Some w ->
  prim w = with_crc_primary (apply_primary now (impl_norm_primary (prim b))) /\
  version (prim w) = version (prim b) /\ flags (prim w) = flags (prim b) /\
  crc_type (prim w) = crc_type (prim b) /\ frag (prim w) = frag (prim b) /\
  (create_time (prim b) <> 0 ->
   create_time (prim w) = create_time (prim b) /\ create_seq (prim w) = create_seq (prim b)) /\
  (lifetime (prim b) <> 0 -> lifetime (prim w) = lifetime (prim b)).
Proof. intros node now b w Hb Hw. rewrite (c11_w node now b Hb w Hw). exact (fwd_primary_always node now b). Qed.
Print Assumptions C11_primary_characterised.

Theorem C11_primary_unchanged_refuted_time0 :
  exists (node : eid) (now : N) (b w : bundle),
    fwd_inb node now b = true /\ eids_stableb (prim b) = true /\ (lifetime (prim b) =? 0) = false /\
    decode_bundle (encode_bundle (do_fwd node now b)) = Some w /\
    create_time (prim b) = 0 /\ create_time (prim w) = now /\
    create_seq (prim b) = 3 /\ create_seq (prim w) = 0 /\
    (* and the received Bundle Age block is gone *)
    filter (fun x => btype x =? 7) (blocks b) <> [] /\ filter (fun x => btype x =? 7) (blocks w) = [].
Proof. exact time0_refutes. Qed.
Print Assumptions C11_primary_unchanged_refuted_time0.

Theorem C11_primary_unchanged_refuted_lifetime0 :
  exists (node : eid) (now : N) (b w : bundle),
    fwd_inb node now b = true /\ eids_stableb (prim b) = true /\ (create_time (prim b) =? 0) = false /\
    decode_bundle (encode_bundle (do_fwd node now b)) = Some w /\
    lifetime (prim b) = 0 /\ lifetime (prim w) = 3600000.
Proof. exact life0_refutes. Qed.
Print Assumptions C11_primary_unchanged_refuted_lifetime0.

Theorem C11_primary_unchanged_refuted_eid :
  exists (node : eid) (now : N) (b w : bundle),
    fwd_inb node now b = true /\ (create_time (prim b) =? 0) = false /\ (lifetime (prim b) =? 0) = false /\
    recv_crc_ok b = true /\
    decode_bundle (encode_bundle (do_fwd node now b)) = Some w /\ dest (prim w) <> dest (prim b).
Proof. exact eid_refutes. Qed.
Print Assumptions C11_primary_unchanged_refuted_eid.

(** FULL STATEMENT (refuted below): without [payload_stableb]. *)
Theorem C11_payload_unchanged_partial : forall (node : eid) (now : N) (b w : bundle),
  fwd_inb node now b = true ->
  payload_stableb b = true ->       (* not a status report whose re-encoding differs (EID with ? / #) *)
  decode_bundle (encode_bundle (do_fwd node now b)) = Some w ->
  (* type, number, flags, CRC type and data of the type-1 block(s) *)
  map core (filter (fun x => btype x =? 1) (blocks w)) = map core (filter (fun x => btype x =? 1) (blocks b)).
Proof. intros node now b w Hb Hs Hw. rewrite (c11_w node now b Hb w Hw). exact (fwd_payload_unchanged node now b Hs). Qed.
Print Assumptions C11_payload_unchanged_partial.

Theorem C11_payload_unchanged_refuted :
  exists (node : eid) (now : N) (b w : bundle),
    fwd_inb node now b = true /\ recv_crc_ok b = true /\
    decode_bundle (encode_bundle (do_fwd node now b)) = Some w /\
    map btsd (filter (fun x => btype x =? 1) (blocks w)) <> map btsd (filter (fun x => btype x =? 1) (blocks b)).
Proof. exact admin_refutes. Qed.
Print Assumptions C11_payload_unchanged_refuted.

(** FULL STATEMENT (refuted below): without [prev_parseb]. *)
Theorem C11_prev_node_exactly_one_partial : forall (node : eid) (now : N) (b w : bundle),
  fwd_inb node now b = true ->
  prev_parseb b = true ->           (* every received type-6 block is one the implementation dissects *)
  decode_bundle (encode_bundle (do_fwd node now b)) = Some w ->
  exists blk, filter (fun x => btype x =? 6) (blocks w) = [blk] /\ decode_prev_node (btsd blk) = Some node.
Proof. intros node now b w Hb Hp Hw. rewrite (c11_w node now b Hb w Hw). exact (fwd_prev_exactly_one node now b Hb Hp). Qed.
Print Assumptions C11_prev_node_exactly_one_partial.

Theorem C11_prev_node_exactly_one_refuted :
  exists (node : eid) (now : N) (b w : bundle),
    fwd_inb node now b = true /\
    decode_bundle (encode_bundle (do_fwd node now b)) = Some w /\
    length (filter (fun x => btype x =? 6) (blocks w)) = 2%nat.
Proof. exact prevjunk_refutes. Qed.
Print Assumptions C11_prev_node_exactly_one_refuted.

(** hop count: the received and the transmitted type-10 blocks correspond one to one, in order;
    number, flags and CRC type kept; [limit, count] becomes [limit, count + 1]; a block whose data is not
    a two-uint array is left as it is *)
Theorem C11_hop_count : forall (node : eid) (now : N) (b w : bundle),
  fwd_inb node now b = true ->
  decode_bundle (encode_bundle (do_fwd node now b)) = Some w ->
  Forall2 (fun rb wb =>
             bnum wb = bnum rb /\ bflags wb = bflags rb /\ bcrc_type wb = bcrc_type rb /\
             match decode_hop_count (btsd rb) with
             | Some (l, c) => decode_hop_count (btsd wb) = Some (l, c + 1)
             | None => btsd wb = btsd rb
             end)
          (filter (fun x => btype x =? 10) (blocks b)) (filter (fun x => btype x =? 10) (blocks w)).
Proof. intros node now b w Hb Hw. rewrite (c11_w node now b Hb w Hw). exact (fwd_hop_count node now b Hb). Qed.
Print Assumptions C11_hop_count.

(** FULL STATEMENT (refuted below): without [age_parseb], and with the value for every clock. *)
Theorem C11_age_at_most_one_partial : forall (node : eid) (now : N) (b w : bundle),
  fwd_inb node now b = true ->
  age_parseb b = true ->            (* every received type-7 block is one the implementation dissects *)
  decode_bundle (encode_bundle (do_fwd node now b)) = Some w ->
  (create_time (prim b) = 0 -> filter (fun x => btype x =? 7) (blocks w) = []) /\
  (create_time (prim b) <> 0 ->
   exists blk, filter (fun x => btype x =? 7) (blocks w) = [blk] /\
               (create_time (prim b) <= now ->
                decode_bundle_age (btsd blk) = Some (now - create_time (prim b)))).
Proof. intros node now b w Hb Hp Hw. rewrite (c11_w node now b Hb w Hw). exact (fwd_age_at_most_one node now b Hb Hp). Qed.
Print Assumptions C11_age_at_most_one_partial.

Theorem C11_age_at_most_one_refuted :
  exists (node : eid) (now : N) (b w : bundle),
    fwd_inb node now b = true /\
    decode_bundle (encode_bundle (do_fwd node now b)) = Some w /\
    length (filter (fun x => btype x =? 7) (blocks w)) = 2%nat.
Proof. exact agejunk_refutes. Qed.
Print Assumptions C11_age_at_most_one_refuted.

Theorem C11_age_value_refuted :
  exists (node : eid) (now : N) (b w : bundle) (blk : cblock),
    fwd_inb node now b = true /\ age_parseb b = true /\ now < create_time (prim b) /\
    decode_bundle (encode_bundle (do_fwd node now b)) = Some w /\
    filter (fun x => btype x =? 7) (blocks w) = [blk] /\
    decode_bundle_age (btsd blk) = None /\                                    (* not an unsigned integer *)
    btsd blk = encode (CNint (create_time (prim b) - now - 1)).             (* the integer now - creation < 0 *)
Proof. exact future_refutes. Qed.
Print Assumptions C11_age_value_refuted.

Theorem C11_block_numbers_unique : forall (node : eid) (now : N) (b w : bundle),
  fwd_inb node now b = true ->      (* includes: the received numbers are distinct and none is 0 *)
  decode_bundle (encode_bundle (do_fwd node now b)) = Some w ->
  NoDup (map bnum (blocks w)) /\ ~ In 0 (map bnum (blocks w)).
Proof. intros node now b w Hb Hw. rewrite (c11_w node now b Hb w Hw). exact (fwd_numbers_unique node now b Hb). Qed.
Print Assumptions C11_block_numbers_unique.

(** a received bundle with a repeated block number (or a block numbered 0) never reaches [_do_fwd]:
    [BundleContainer.reload] raises out of the CL callback *)
Theorem C11_duplicate_numbers_not_forwarded : forall (node : eid) (now : N) (bs : bytes) (b : bundle),
  decode_bundle bs = Some b -> nodupb (0 :: map bnum (blocks b)) = false ->
  recv_fwd node now bs = RxContainerRaises.
Proof. exact recv_fwd_duplicate_numbers. Qed.
Print Assumptions C11_duplicate_numbers_not_forwarded.

(** the new blocks go in front of the last block: a payload block that came last with number 1 leaves
    last with number 1.  (A received bundle whose payload block is NOT last / NOT numbered 1 violates
    RFC 9171 4.1 / 4.3.3 itself; it is forwarded in the order it came - [paypos_example] in
    Proofs/BpFwdProofs.v - and is outside what the property promises.) *)
Theorem C11_payload_last_num1 : forall (node : eid) (now : N) (b w : bundle),
  fwd_inb node now b = true ->
  payload_last_num1b (blocks b) = true ->
  decode_bundle (encode_bundle (do_fwd node now b)) = Some w ->
  exists pre pl, blocks w = pre ++ [pl] /\ btype pl = 1 /\ bnum pl = 1.
Proof. intros node now b w Hb Hp Hw. rewrite (c11_w node now b Hb w Hw). exact (fwd_payload_last_num1 node now b Hp). Qed.
Print Assumptions C11_payload_last_num1.

(** CRCs: every block on the wire (CRC types as received, none on the two new blocks) checks; [do_fwd] ends by
    recomputing them, the hypothesis serves only to decode the octets *)
Theorem C11_crcs_valid : forall (node : eid) (now : N) (b w : bundle),
  fwd_inb node now b = true ->
  decode_bundle (encode_bundle (do_fwd node now b)) = Some w ->
  crc_ok_bundle w = true.
Proof. intros node now b w Hb Hw. rewrite (c11_w node now b Hb w Hw). exact (fwd_crcs_valid node now b). Qed.
Print Assumptions C11_crcs_valid.

(** everything else: blocks that are neither payload, nor of type 10, nor a previous-node / age block
    the implementation recognises, keep type, number, flags, CRC type, data and relative order *)
Theorem C11_other_blocks_untouched : forall (node : eid) (now : N) (b w : bundle),
  fwd_inb node now b = true ->
  decode_bundle (encode_bundle (do_fwd node now b)) = Some w ->
  map core (filter untouchedb (blocks w)) = map core (filter untouchedb (blocks b)).
Proof. intros node now b w Hb Hw. rewrite (c11_w node now b Hb w Hw). exact (fwd_other_blocks_untouched node now b Hb). Qed.
Print Assumptions C11_other_blocks_untouched.

(** non-vacuity: one received bundle with a previous-node, a hop-count, an age, an unknown and the
    payload block satisfies every hypothesis used above (and the guards of the [_partial] theorems); the
    model forwards it as shown in [ex_bundle_forwarded] *)
Theorem C11_nonvacuous :
  fwd_inb ex_node ex_now ex_bundle = true /\ eids_stableb (prim ex_bundle) = true /\
  payload_stableb ex_bundle = true /\ prev_parseb ex_bundle = true /\ age_parseb ex_bundle = true /\
  payload_last_num1b (blocks ex_bundle) = true /\
  (create_time (prim ex_bundle) =? 0) = false /\ (lifetime (prim ex_bundle) =? 0) = false /\
  create_time (prim ex_bundle) <= ex_now /\ recv_crc_ok ex_bundle = true /\
  eid_eqb (src (prim ex_bundle)) ex_node = false /\
  decode_bundle (encode_bundle ex_bundle) = Some ex_bundle /\
  map core (blocks (do_fwd ex_node ex_now ex_bundle)) =
  [(10, 3, 0, 1, [130; 24; 30; 4]); (192, 5, 1, 2, [1; 2; 3]);
   (6, 2, 0, 0, [130; 1; 101; 47; 47; 109; 101; 47]);
   (7, 4, 0, 0, [27; 0; 0; 0; 23; 72; 118; 232; 0]);
   (1, 1, 0, 2, [104; 105])].
Proof. exact (guards_true _ _ _ _ (proj1 ex_bundle_hyps) (conj (proj2 ex_bundle_hyps) (proj1 ex_bundle_forwarded))). Qed.
Print Assumptions C11_nonvacuous.

(** Translator tie: the step structure of [_do_fwd] read from the source on every run
    ([Gen/FwdSteps.v] by translate/targets/fwdsteps.py; meaning of the steps: [Proofs/BpFwdTie.run_step]).
    An edit of [_do_fwd] that iterates the live list again, drops the hop-count re-encoding, changes the
    increment, the order of the steps, the guard of the age block or the age expression changes the generated
    definitions and breaks one of these theorems (or makes the translator fail closed). *)

(** what the source does, in order: remove every Previous Node block (iterating over a copy), add this
    node's, increment every hop count by 1 and re-encode it, remove every Bundle Age block (over a copy),
    add the new age under the guard *)
Theorem C11_tie_steps :
  fwd_steps = [StRemoveAll 6 true; StAddPrevNode; StBumpHop 1 true; StRemoveAll 7 true; StAddAge].
Proof. exact tie_steps_shape. Qed.
Print Assumptions C11_tie_steps.

(** the model of the theorems above is the interpretation of exactly those steps, for every bundle *)
Theorem C11_tie_model_performs_the_steps : forall (node : eid) (now ctime : N) (bl : list cblock),
  fwd_blocks node now ctime bl = run_steps fwd_steps node now ctime bl.
Proof. exact tie_fwd_blocks. Qed.
Print Assumptions C11_tie_model_performs_the_steps.

(** the age block is added iff the received creation time is not 0, and carries now - creation as an integer *)
Theorem C11_tie_age : forall (now ctime : N),
  fwd_age_guard ctime = negb (ctime =? 0) /\
  cbor_int (age_item now ctime) = Some (fwd_age (Z.of_N now) (Z.of_N ctime)).
Proof. intros now ctime. exact (conj (tie_age_guard ctime) (tie_age_value now ctime)). Qed.
Print Assumptions C11_tie_age.
