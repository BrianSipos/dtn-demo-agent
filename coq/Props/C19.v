(** C19 - Status reports are sent exactly when requested and say what happened.

    Model: Model/BpAgent.v.  [create_report] is BundleContainer.create_report over the tables translated
    from the source into Gen/ReportTable.v (FLAGS, STATUS_FIELD, PrimaryBlock.Flag, the reply's primary
    block); [recv_core] is one call of Agent.recv_bundle with everything it defers; [reports_of evs] are
    the status reports handed to a convergence layer among the events [evs].
    [occurred evs s] reads what happened off the events: delivered = a delivery callback, forwarded = the
    bundle (whole or as fragments) handed to a CL, deleted = neither.

    Standing for the unchanged code (the model reproduces it):
      C19_content_refuted   - when the fragment step takes the bundle over on a route whose CL is not
                              attached, 'forwarded' is reported although every fragment fails to be sent
                              (a forward that fails outright is reported as deleted only, the behaviour
                              since commit cf814c0 of /repo: C19_failed_forward_deleted_only);
      C19_subject_refuted   - a forwarded bundle with creation time 0 is reported under the timestamp
                              the agent wrote into it, not the one it arrived with;
      C19_emitted_if_refuted_{no_route,fragment} - requested reception reports that are never sent. *)
From Coq Require Import NArith List Bool.
From DTN Require Import Gen.ReportTable Model.BpAgent Proofs.BpAgentProofs.
Import ListNotations.
Local Open Scope N_scope.

(** create_report returns a report  <->  report-to is not dtn:none  /\  some recorded action was requested. *)
Theorem C19_iff :
  forall (node : eid) (ts : N * N) (b : bundle) (acts : list action) (rsn : option N),
    create_report node ts b acts rsn <> None
    <-> b_rpt b <> EID_NONE /\ exists s, In s acts /\ requested b s = true.
Proof. exact create_report_iff. Qed.
Print Assumptions C19_iff.

(** Only if, and content: every report handed to a CL while processing [b] is addressed to b's report-to
    endpoint (which is not dtn:none), comes from this node, is flagged as an administrative record with
    CRC-32C on its blocks, names b's source (and creation timestamp, when that is not zero) as subject,
    carries times iff b requested them, asserts something, and asserts only what b requested. *)
Theorem C19_only_if_and_content :
  forall (matches : N -> eid -> bool) (a : agent) (b : bundle) (r : report),
    In r (reports_of (snd (fst (recv_core matches a b)))) ->
    b_rpt b <> EID_NONE /\ r_dst r = b_rpt b /\ r_src r = a_node a /\ r_rpt r = EID_NONE
    /\ r_flags r = report_bundle_flags /\ r_crc r = report_crc_type
    /\ r_with_time r = has_flag (b_flags b) status_time_flag
    /\ r_subj_src r = b_src b
    /\ (b_time b <> 0 -> r_subj_time r = b_time b /\ r_subj_seq r = b_seq b)
    /\ (exists s, asserted r s = true)
    /\ (forall s, asserted r s = true -> requested b s = true).
Proof. exact report_sound. Qed.
Print Assumptions C19_only_if_and_content.

(** FULL STATEMENT (false in the corners the guards exclude: C19_content_refuted shows the second,
    C19_refused_example the third):
      forall matches a b r, In r (reports_of evs) -> forall s, asserted r s = requested b s && occurred evs s.
    Guards: the bundle is not a fragment routed to delivery, the fragment step did not take the bundle over
    on a route whose CL is not attached, and the application it is delivered to does not refuse it (the admin
    element rejecting an ACME record records 'delete' after the delivery: the one report then asserts both
    "delivered" and "deleted", see C19_refused_example). *)
Theorem C19_content_partial :
  forall (matches : N -> eid -> bool) (a : agent) (b : bundle) (r : report),
    In r (reports_of (snd (fst (recv_core matches a b)))) ->
    mem ADlv (route_actions matches a b) && is_frag b = false ->
    (forall k, send_path matches a (b_dst b) (b_size b) (has_flag (b_flags b) FLAG_NO_FRAGMENT) (is_frag b) (b_fragfeas b)
               <> SentFrags k false) ->
    b_refuse b = false ->
    forall s, asserted r s = requested b s && occurred (snd (fst (recv_core matches a b))) s.
Proof. exact asserted_occurred_partial. Qed.
Print Assumptions C19_content_partial.

Theorem C19_content_refuted :
  exists (a : agent) (b : bundle) (r : report),
    In r (reports_of (w_events a b))
    /\ mem ADlv (route_actions w_matches a b) && is_frag b = false
    /\ requested b AFwd = true
    /\ asserted r AFwd = true /\ occurred (w_events a b) AFwd = false
    /\ asserted r ADel = false.
Proof. exact asserted_occurred_refuted. Qed.
Print Assumptions C19_content_refuted.

(** The behaviour since commit cf814c0 of /repo: no transmit route for the destination - the one report asserts received and
    deleted (reason NO_ROUTE), not forwarded. *)
Theorem C19_failed_forward_deleted_only :
  let a := w_agent [(0, AFwd)] [w_rpt_route] in
  let b := w_bundle 1000 1 None in
  map (fun r => (map (asserted r) [ARecv; AFwd; ADlv; ADel], r_reason r)) (reports_of (w_events a b))
  = [([true; false; false; true], fwd_fail_reason)].
Proof. exact failed_forward_reported_deleted_only. Qed.
Print Assumptions C19_failed_forward_deleted_only.

(** FULL STATEMENT (false): the subject timestamp is always the one the bundle arrived with.  The guarded
    version ([b_time b <> 0]) is part of C19_only_if_and_content. *)
Theorem C19_subject_refuted :
  exists (a : agent) (b : bundle) (r : report),
    In r (reports_of (w_events a b))
    /\ has_tx (w_events a b) = true
    /\ (r_subj_time r =? b_time b) = false.
Proof. exact subject_refuted. Qed.
Print Assumptions C19_subject_refuted.

(** A report never requests further reports: none of the four request flags nor the status-time flag is
    set in its bundle flags, its own report-to is dtn:none, the administrative-record flag is set, and
    [create_report] applied to any bundle carrying those flags yields nothing. *)
Theorem C19_no_cascade :
  forall (matches : N -> eid -> bool) (a : agent) (b : bundle) (r : report),
    In r (reports_of (snd (fst (recv_core matches a b)))) ->
    (forall s, flags_request (r_flags r) s = false)
    /\ has_flag (r_flags r) status_time_flag = false
    /\ has_flag (r_flags r) FLAG_PAYLOAD_ADMIN = true
    /\ r_rpt r = EID_NONE
    /\ (forall node' ts' b' acts' rsn', b_flags b' = r_flags r -> create_report node' ts' b' acts' rsn' = None).
Proof. exact report_no_cascade. Qed.
Print Assumptions C19_no_cascade.

(** A bundle that was forwarded (whole or as fragments) is never reported as deleted. *)
Theorem C19_forwarded_not_deleted :
  forall (matches : N -> eid -> bool) (a : agent) (b : bundle) (r : report),
    In r (reports_of (snd (fst (recv_core matches a b)))) ->
    has_tx (snd (fst (recv_core matches a b))) = true -> asserted r ADel = false.
Proof. exact forwarded_not_deleted. Qed.
Print Assumptions C19_forwarded_not_deleted.

(** If-direction.  FULL STATEMENT (false): whenever report-to is set and a requested status occurred, a
    report is handed to [send_bundle].  Proved for the reception status of bundles that reach a final
    disposition (deleted / delivered / taken for forwarding). *)
Theorem C19_emitted_if_partial :
  forall (matches : N -> eid -> bool) (a : agent) (b : bundle),
    accepted a b = true ->
    mem ADlv (route_actions matches a b) && is_frag b = false ->
    b_rpt b <> EID_NONE -> requested b ARecv = true ->
    mem ADel (chain_acts matches a b) || mem ADlv (chain_acts matches a b) || mem AFwd (chain_acts matches a b) = true ->
    exists e, In e (snd (fst (recv_core matches a b))) /\ is_report_ev e = true.
Proof. exact report_attempted_if. Qed.
Print Assumptions C19_emitted_if_partial.

Theorem C19_emitted_if_refuted_no_route :
  exists (a : agent) (b : bundle),
    accepted a b = true /\ b_rpt b <> EID_NONE /\ requested b ARecv = true /\ requested b ADel = true
    /\ w_events a b = [].
Proof. exact attempted_if_refuted_no_route. Qed.
Print Assumptions C19_emitted_if_refuted_no_route.

Theorem C19_emitted_if_refuted_fragment :
  exists (a : agent) (b : bundle),
    accepted a b = true /\ b_rpt b <> EID_NONE /\ requested b ARecv = true /\ is_frag b = true
    /\ w_events a b = [].
Proof. exact attempted_if_refuted_fragment. Qed.
Print Assumptions C19_emitted_if_refuted_fragment.

(** Non-vacuity: concrete runs satisfying the hypotheses above, evaluated. *)

(* delivered with every report requested: one report, received+delivered asserted, with times *)
Example C19_content_example :
  let a := w_agent [(0, ADlv)] [w_rpt_route] in
  let b := w_bundle 1000 1 None in
  mem ADlv (route_actions w_matches a b) && is_frag b = false
  /\ map (fun r => (map (asserted r) [ARecv; AFwd; ADlv; ADel], r_with_time r, r_dst r))
         (reports_of (w_events a b)) = [([true; false; true; false], true, 7)].
Proof. vm_compute. repeat split. Qed.

(* forwarded as fragments (MTU 60 < size 95, feasible): 'forwarded' reported, never 'deleted' *)
Example C19_forwarded_not_deleted_example :
  let a := w_agent [(0, AFwd)] [w_rpt_route; mkTx 1001 true (Some 60) 0] in
  let b := w_bundle 1000 1 None in
  has_tx (w_events a b) = true
  /\ map (fun r => map (asserted r) [ARecv; AFwd; ADlv; ADel]) (reports_of (w_events a b))
     = [[true; true; false; false]].
Proof. vm_compute. repeat split. Qed.

(* refused by the admin element after delivery: one report asserting received, delivered AND deleted *)
Example C19_refused_example :
  let a := w_agent [] [w_rpt_route] in
  let b := mkBundle 5 1 7 1000 1 None ALL_REPORT_FLAGS 5 true None 0 95 true true in
  map (fun r => map (asserted r) [ARecv; AFwd; ADlv; ADel]) (reports_of (w_events a b)) = [[true; false; true; true]].
Proof. vm_compute. reflexivity. Qed.

Example C19_emitted_if_example :
  let a := w_agent [(0, ADel)] [w_rpt_route] in
  let b := w_bundle 1000 1 None in
  accepted a b = true /\ mem ADlv (route_actions w_matches a b) && is_frag b = false
  /\ requested b ARecv = true
  /\ mem ADel (chain_acts w_matches a b) = true
  /\ length (reports_of (w_events a b)) = 1%nat.
Proof. vm_compute. repeat split. Qed.
