(* C14 -- a TCPCL endpoint negotiates its session settings correctly and keeps
   its keepalive and idle timers.  About the executable model Model/TcpclSess.v
   (s = run c ops: every configuration and every operation list).  The ties of
   the model's formulas (keepalive = min, initial segment size, clamp <= MRU)
   to the code are in Props/TcpclTie.v and are not repeated here.

   Two statements are FALSE of the model and are proved with an
   explicit extra hypothesis (suffix _partial), the counterexample being kept
   (suffix _refuted): a SESS_INIT whose node id does not decode (non-ASCII in the
   model = UnicodeDecodeError in merge_session_params) sets _in_sess and the peer
   SESS_INIT but raises before the negotiated values are merged, so
     - keepalive_time is not the minimum of the two SESS_INIT values
       (C14_keepalive_min_refuted), and
     - after a second such SESS_INIT the segment size exceeds the (new) peer MRU
       (C14_seg_le_mru_refuted).
   With "the peer's node id is ASCII" both hold (C14_keepalive_min_partial,
   C14_seg_le_mru_partial).

   Timers: the exact form of the keepalive invariant is
     ka_due = Some (t + keepalive_time*1000)  with  t_send <= t <= now
   (t_send = clock at the last send_message): merge_session_params re-arms the
   timer at the time of the merge, which on the active side is later than the
   last send (C14_keepalive_active_not_exact); on the passive side, where
   SESS_INIT is sent in the same callback, t = t_send exactly
   (C14_keepalive_armed_passive).  The idle timer is exact:
     idle_due = Some (max(t_send, t_recv) + idle_time*1000). *)
From Coq Require Import List NArith Bool.
Import ListNotations.
From DTN Require Import Lib.Bytes Model.TcpclMsg Model.TcpclSess
  Proofs.TcpclRobustC14.
Local Open Scope N_scope.

(* ---- (14a) keepalive = min of the two SESS_INIT values; ours is the configured one *)
Theorem C14_keepalive_min_partial : forall c ops a b,
  let s := run c ops in
  in_sess s = true -> sessinit_this s = Some a -> sessinit_peer s = Some b ->
  ascii (si_nodeid b) = true ->
  keepalive_time s = N.min (si_keepalive a) (si_keepalive b) /\ si_keepalive a = c_keepalive c.
Proof. exact keepalive_min_partial. Qed.
Print Assumptions C14_keepalive_min_partial.

Theorem C14_keepalive_min_refuted :
  exists c ops a b,
    let s := run c ops in
    in_sess s = true /\ sessinit_this s = Some a /\ sessinit_peer s = Some b
    /\ keepalive_time s <> N.min (si_keepalive a) (si_keepalive b).
Proof. exact keepalive_min_refuted. Qed.
Print Assumptions C14_keepalive_min_refuted.

Definition c14_cfg : cfg := mkCfg true [97] 30 60 1000 500 None.
Definition c14_ops : list op :=
  [OStart; ORx (MAGIC ++ [4; 0]); ORx (encode_msg (MSessInit 20 400 1000 [98] []))].
Example C14_keepalive_min_nonvacuous :
  let s := run c14_cfg c14_ops in
  in_sess s = true /\ sessinit_this s = Some (mkSI 30 1000 (2^64 - 1) [97])
  /\ sessinit_peer s = Some (mkSI 20 400 1000 [98]) /\ ascii [98] = true
  /\ keepalive_time s = 20 /\ seg_size s = 400 /\ idle_time s = 60.
Proof. vm_compute. repeat split. Qed.

(* a negotiated interval of 0 disables the keepalive timer *)
Theorem C14_keepalive_zero_disables : forall c ops,
  let s := run c ops in keepalive_time s = 0 -> ka_due s = None.
Proof. exact keepalive_zero_disables. Qed.
Print Assumptions C14_keepalive_zero_disables.

(* ---- (14b) segment size: at most the peer's MRU, at most the configured initial size *)
Theorem C14_seg_le_mru_partial : forall c ops p,
  let s := run c ops in
  in_sess s = true -> sessinit_peer s = Some p -> ascii (si_nodeid p) = true ->
  sessinit_this s <> None ->
  seg_size s <= si_seg_mru p /\ seg_size s = N.min (c_seg_init c) (si_seg_mru p).
Proof. exact seg_le_mru_partial. Qed.
Print Assumptions C14_seg_le_mru_partial.

Theorem C14_seg_le_mru_refuted :
  exists c ops p,
    let s := run c ops in
    in_sess s = true /\ sessinit_peer s = Some p /\ ~ seg_size s <= si_seg_mru p.
Proof. exact seg_le_mru_refuted. Qed.
Print Assumptions C14_seg_le_mru_refuted.

Theorem C14_seg_le_init : forall c ops, seg_size (run c ops) <= c_seg_init c.
Proof. exact seg_le_init. Qed.
Print Assumptions C14_seg_le_init.

(* ---- (14c) keepalive timer *)
Theorem C14_keepalive_armed : forall c ops,
  let s := run c ops in
  closed s = false -> 0 < keepalive_time s ->
  exists t, ka_due s = Some (t + keepalive_time s * 1000) /\ t_send s <= t <= now s.
Proof. exact keepalive_armed. Qed.
Print Assumptions C14_keepalive_armed.

Theorem C14_keepalive_armed_passive : forall c ops,
  let s := run c ops in
  c_passive c = true -> closed s = false -> 0 < keepalive_time s ->
  ka_due s = Some (t_send s + keepalive_time s * 1000).
Proof. exact keepalive_armed_passive. Qed.
Print Assumptions C14_keepalive_armed_passive.

Example C14_keepalive_active_not_exact :
  let s := run cfg_a [OStart; ORx (MAGIC ++ [4; 0]); OAdvance 5000;
                      ORx (encode_msg (MSessInit 20 400 1000 [98] []))] in
  closed s = false /\ keepalive_time s = 20 /\ t_send s = 0 /\ now s = 5000 /\ ka_due s = Some 25000.
Proof. exact keepalive_armed_active_not_exact. Qed.

Theorem C14_keepalive_sent : forall s d,
  ka_due s = Some d -> d <= now s -> closed s = false ->
  sent (step s OFireKa) = sent s ++ [FMsg MKeepalive].
Proof. exact keepalive_sent. Qed.
Print Assumptions C14_keepalive_sent.

(* a KEEPALIVE is sent whenever the negotiated interval elapses with nothing else sent *)
Theorem C14_keepalive_fires : forall c ops,
  let s := run c ops in
  closed s = false -> 0 < keepalive_time s ->
  exists d, ka_due s = Some d
    /\ t_send s + keepalive_time s * 1000 <= d <= now s + keepalive_time s * 1000
    /\ forall dt, d <= now s + dt ->
         sent (step (step s (OAdvance dt)) OFireKa) = sent s ++ [FMsg MKeepalive].
Proof. exact keepalive_fires. Qed.
Print Assumptions C14_keepalive_fires.

Example C14_keepalive_nonvacuous :
  let s := run c14_cfg c14_ops in
  closed s = false /\ keepalive_time s = 20 /\ ka_due s = Some 20000
  /\ sent (step (step s (OAdvance 20000)) OFireKa) = sent s ++ [FMsg MKeepalive].
Proof. vm_compute. repeat split. Qed.

(* ---- (14d) idle timer *)
Theorem C14_idle_armed : forall c ops,
  let s := run c ops in
  closed s = false -> 0 < idle_time s ->
  idle_due s = Some (N.max (t_send s) (t_recv s) + idle_time s * 1000).
Proof. exact idle_armed. Qed.
Print Assumptions C14_idle_armed.

Theorem C14_idle_zero_disables : forall c ops,
  let s := run c ops in idle_time s = 0 -> idle_due s = None.
Proof. exact idle_zero_disables. Qed.
Print Assumptions C14_idle_zero_disables.

Theorem C14_closed_no_timers : forall c ops,
  let s := run c ops in closed s = true -> ka_due s = None /\ idle_due s = None.
Proof. exact closed_no_timers. Qed.
Print Assumptions C14_closed_no_timers.

Theorem C14_idle_armed_in_session : forall c ops d,
  let s := run c ops in idle_due s = Some d -> in_sess s = true /\ closed s = false.
Proof. exact idle_armed_in_session. Qed.
Print Assumptions C14_idle_armed_in_session.

(* idle timeout in an established session: SESS_TERM with reason 1 *)
Theorem C14_idle_term : forall c ops d,
  let s := run c ops in
  idle_due s = Some d -> d <= now s -> in_term s = false -> in_sess s = true ->
  sent (step s OFireIdle) = sent s ++ [FMsg (MSessTerm 0 1)].
Proof. exact idle_term. Qed.
Print Assumptions C14_idle_term.

(* idle timeout while already terminating: the endpoint closes *)
Theorem C14_terminating_closes : forall s d,
  idle_due s = Some d -> d <= now s -> in_term s = true -> closed (step s OFireIdle) = true.
Proof. exact terminating_closes. Qed.
Print Assumptions C14_terminating_closes.

Example C14_idle_nonvacuous :
  let s := run c14_cfg (c14_ops ++ [OAdvance 60000]) in
  idle_due s = Some 60000 /\ in_term s = false /\ in_sess s = true
  /\ sent (step s OFireIdle) = sent s ++ [FMsg (MSessTerm 0 1)]
  /\ in_term (step s OFireIdle) = true
  /\ closed (step (step (step s OFireIdle) (OAdvance 60000)) OFireIdle) = true.
Proof. vm_compute. repeat split. Qed.
