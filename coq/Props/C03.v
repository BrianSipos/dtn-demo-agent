(** C03 - A COSE integrity block verifies iff nothing it covers was altered.

    The statements are over [Model/BpSec.v] (bundle at the CBOR-tree level).
    The cryptographic primitives and key resolution are explicit parameters
    of every theorem; their properties are explicit premises:
      correctness   [mac_ok k m (mac k m) = true], [unwrap kek (wrap kek cek) = Some cek]
      idealisation  [mac_ok k x t = true -> mac_ok k' y t = true -> k = k' /\ x = y]
                    (a tag / signature is valid for at most one key and message;
                     NOT proved of HMAC / ECDSA / RSA-PSS - that part of the
                     property is exercised by the harness with the real libraries).
    Non-vacuity of the premises: [BpSecProofs.Ex] instantiates the primitives
    ([macS_inj] etc.) and runs a concrete bundle ([complete_run],
    [complete_premises], [sound_run], [wf_op_run]).

    Full property (kept visible): "verification fails after ANY change to
    ... the primary block ... security source".  That is proved for the
    content as DECODED ([C03_binding], [C03_sound]).  For the octets on the
    wire it is false of the unchanged code: see [C03_wire_primary_refuted] and
    [C03_wire_source_refuted] (EID normalisation); [C03_binding] is the
    strongest true statement. *)
From Coq Require Import List NArith.
From DTN Require Import Lib.Bytes Lib.Cbor Model.BpSec Proofs.BpSecProofs.
Import ListNotations.
Local Open Scope N_scope.

(** The verifier recomputes, from the received bundle (security block now
    inserted and filled in), the AAD the source computed while the security
    block "is not yet part of the bundle": the AAD does not depend on that. *)
Theorem C03_aad_agreement :
  forall (b : bundle) (sec sec' tgt tgt' : cblock) (source : cbor) (s : scope) (addl : bytes),
    meta_items sec' = meta_items sec ->
    meta_items tgt' = meta_items tgt -> cb_btsd tgt' = cb_btsd tgt ->
    (forall f, In (CNint 1, f) s -> flag_btsd f = false) ->
    ~ In (CUint (cb_num sec)) (map fst s) ->
    external_aad (insert_block b sec') sec' tgt' source s addl = external_aad b sec tgt source s addl.
Proof. exact aad_agreement. Qed.
Print Assumptions C03_aad_agreement.

(** The MAC / signature input is an INJECTIVE function of exactly the covered
    content: COSE context string, protected header parameters, security
    source, AAD scope, per scope entry the primary block / block type, number,
    flags / BTSD selected by its flag bits, additional protected parameters,
    and the target's BTSD.  So every alteration of covered content changes
    what is authenticated, and every alteration of anything else leaves it
    unchanged. *)
Theorem C03_binding :
  forall o o' : secop, wf_op o -> wf_op o' -> (mac_input o = mac_input o' <-> covered o = covered o').
Proof. exact mac_input_binding. Qed.
Print Assumptions C03_binding.

(** Nothing of the primary block is lost by binding [bytes(blk)] after
    [update_crc]: the bound item determines every primary-block field. *)
Theorem C03_primary_bound :
  forall p p' : list cbor, (3 <= length p)%nat -> (3 <= length p')%nat -> primary_item p = primary_item p' -> p = p'.
Proof. exact primary_item_inj. Qed.
Print Assumptions C03_primary_bound.

(** Completeness: the BIB [apply_bib] produces verifies, on the octets of the
    security block, at a verifier whose key ring resolves the key
    (COSE_Mac0 / COSE_Sign1 with a direct key, COSE_Mac with a wrapped key). *)
Theorem C03_complete :
  forall (key : Type) (mac : key -> bytes -> bytes) (mac_ok : key -> bytes -> bytes -> bool)
         (wrap : key -> key -> bytes) (unwrap : key -> bytes -> option key) (keyring : cbor -> option key),
    (forall k m, mac_ok k m (mac k m) = true) ->
    (forall kek cek, unwrap kek (wrap kek cek) = Some cek) ->
    forall (kind : ckind) (kg : keying key) (protected : bytes) (unprot : list (cbor * cbor))
           (b : bundle) (num : N) (source : cbor) (s : scope) (addl : bytes) (au : option bytes)
           (targets : list N) (a : asb),
      let sec := mkCB bib_type num 0 0 [] in
      let sec' := mkCB bib_type num 0 0 (asb_enc a) in
      auth_kind kind ->
      keys_resolve key keyring kind kg protected unprot source (mkSP addl au s) ->
      results_decodable key wrap kind kg protected unprot ->
      (forall x, okbytes (mac (content_key key kg) x)) ->
      scope_of_cbor (scope_map s) = Some s ->
      (forall f, In (CNint 1, f) s -> flag_btsd f = false) ->
      ~ In (CUint num) (map fst s) ->
      find_block b num = None ->
      apply_bib_asb key mac wrap kind kg protected unprot b sec source s addl au targets = Some a ->
      asb_dec (asb_enc a) = Some a ->
      apply_bib key mac wrap kind kg protected unprot b num source s addl au targets = Some (insert_block b sec') /\
      verify_bib key mac_ok unwrap keyring (insert_block b sec') sec' = true.
Proof. exact bib_complete_wire. Qed.
Print Assumptions C03_complete.

(** Pairing invariant of the BIB the source builds: target list = operations
    in the order given, one result per target, result i computed for target i
    (the verifier pairs them positionally; the harness checks the same pairing
    on the wire with an independent MAC computation). *)
Theorem C03_pairing :
  forall (key : Type) (mac : key -> bytes -> bytes) (wrap : key -> key -> bytes)
         (kind : ckind) (kg : keying key) (protected : bytes) (unprot : list (cbor * cbor)) (b : bundle) (sec : cblock)
         (source : cbor) (s : scope) (addl : bytes) (au : option bytes) (targets : list N) (a : asb),
    apply_bib_asb key mac wrap kind kg protected unprot b sec source s addl au targets = Some a ->
    a_targets a = targets /\ length (a_results a) = length (a_targets a) /\
    forall i t, nth_error (a_targets a) i = Some t ->
      exists rs, nth_error (a_results a) i = Some rs /\
                 apply_bib_target key mac wrap kind kg protected unprot b sec source s addl t = Some rs.
Proof. exact bib_pairing. Qed.
Print Assumptions C03_pairing.

(** Soundness under the idealised MAC: if the tag the source computed over
    [o] under [k] is accepted by the verifier for its own view [o'] of the
    (possibly altered) bundle, then the covered content is unchanged and the
    verifier resolved the same key. *)
Theorem C03_sound :
  forall (key : Type) (mac_ok : key -> bytes -> bytes -> bool) (unwrap : key -> bytes -> option key)
         (keyring : cbor -> option key),
    (forall k k' x y t, mac_ok k x t = true -> mac_ok k' y t = true -> k = k' /\ x = y) ->
    forall (k : key) (o : secop) (mi tag : bytes) (b' : bundle) (sec' tgt' : cblock)
           (source' : cbor) (sp' : secparams) (kind' : ckind) (m' : cose),
      let o' := mkOp kind' (c_protected m') b' sec' source' (sp_scope sp') (sp_addl sp') tgt' in
      wf_op o -> wf_op o' ->
      mac_input o = Some mi -> mac_ok k mi tag = true -> c_tag m' = tag ->
      verify_bib_msg key mac_ok unwrap keyring b' sec' tgt' source' sp' kind' m' = true ->
      covered o' = covered o /\ In k (resolve_content_key key unwrap keyring kind' m' source' sp').
Proof. exact bib_sound. Qed.
Print Assumptions C03_sound.

(** ... hence any alteration of covered content, and a wrong key, make
    verification fail. *)
Theorem C03_altered_or_wrong_key_fails :
  forall (key : Type) (mac_ok : key -> bytes -> bytes -> bool) (unwrap : key -> bytes -> option key)
         (keyring : cbor -> option key),
    (forall k k' x y t, mac_ok k x t = true -> mac_ok k' y t = true -> k = k' /\ x = y) ->
    forall (k : key) (o : secop) (mi tag : bytes) (b' : bundle) (sec' tgt' : cblock)
           (source' : cbor) (sp' : secparams) (kind' : ckind) (m' : cose),
      let o' := mkOp kind' (c_protected m') b' sec' source' (sp_scope sp') (sp_addl sp') tgt' in
      wf_op o -> wf_op o' ->
      mac_input o = Some mi -> mac_ok k mi tag = true -> c_tag m' = tag ->
      covered o' <> covered o \/ ~ In k (resolve_content_key key unwrap keyring kind' m' source' sp') ->
      verify_bib_msg key mac_ok unwrap keyring b' sec' tgt' source' sp' kind' m' = false.
Proof. exact bib_altered_fails. Qed.
Print Assumptions C03_altered_or_wrong_key_fails.

(** A verified block has every one of its targets verified (exactly one
    result per target, structural checks passed). *)
Theorem C03_block_sound :
  forall (key : Type) (mac_ok : key -> bytes -> bytes -> bool) (unwrap : key -> bytes -> option key)
         (keyring : cbor -> option key) (b : bundle) (sec : cblock) (a : asb) (i : nat) (t : N),
    verify_bib_asb key mac_ok unwrap keyring b sec a = true ->
    nth_error (a_targets a) i = Some t ->
    exists sp tgt code v kind m,
      extract_secblk a = Some sp /\ find_block b t = Some tgt /\
      nth_error (a_results a) i = Some [(code, v)] /\ cose_of_result code v = Some (kind, m) /\
      verify_bib_msg key mac_ok unwrap keyring b sec tgt (a_source a) sp kind m = true.
Proof. exact bib_block_sound. Qed.
Print Assumptions C03_block_sound.

(** Changes outside the declared scope do not cause failure: the outcome is a
    function of the covered content (and message, key ring) only ... *)
Theorem C03_outside_scope_ok :
  forall (key : Type) (mac_ok : key -> bytes -> bytes -> bool) (unwrap : key -> bytes -> option key)
         (keyring : cbor -> option key) (b : bundle) (sec tgt : cblock) (b' : bundle) (sec' tgt' : cblock)
         (source : cbor) (sp : secparams) (kind : ckind) (m : cose),
    covered (mkOp kind (c_protected m) b' sec' source (sp_scope sp) (sp_addl sp) tgt') =
    covered (mkOp kind (c_protected m) b sec source (sp_scope sp) (sp_addl sp) tgt) ->
    verify_bib_msg key mac_ok unwrap keyring b' sec' tgt' source sp kind m =
    verify_bib_msg key mac_ok unwrap keyring b sec tgt source sp kind m.
Proof. exact verify_bib_msg_covered. Qed.
Print Assumptions C03_outside_scope_ok.

(** ... and the covered content is unchanged by any alteration of blocks that
    are neither the target, nor the security block header, nor named in the
    scope (with the flag bits they are named with), and by CRC-type changes
    of any canonical block. *)
Theorem C03_outside_scope_unchanged :
  forall o o' : secop,
    op_kind o' = op_kind o -> op_protected o' = op_protected o -> op_source o' = op_source o ->
    op_scope o' = op_scope o -> op_addl o' = op_addl o ->
    meta_items (op_sec o') = meta_items (op_sec o) ->
    meta_items (op_tgt o') = meta_items (op_tgt o) -> cb_btsd (op_tgt o') = cb_btsd (op_tgt o) ->
    (forall f, In (CNint 1, f) (op_scope o) -> flag_btsd f = false) ->
    (forall f, In (CUint 0, f) (op_scope o) -> flag_meta f = true -> b_pri (op_bundle o') = b_pri (op_bundle o)) ->
    (forall p f, In (CUint (N.pos p), f) (op_scope o) ->
       option_map (fun c => block_items c f) (find_block (op_bundle o') (N.pos p)) =
       option_map (fun c => block_items c f) (find_block (op_bundle o) (N.pos p))) ->
    covered o' = covered o.
Proof. exact covered_outside_scope. Qed.
Print Assumptions C03_outside_scope_unchanged.

(** Refuted at the wire level (genuine defect of the unchanged code, witness
    replayed on the implementation by the harness): an altered primary-block
    EID, resp. a one-bit change of the security source, with exactly the same
    authenticated input (model verdict 1 = "must verify"). *)
Theorem C03_wire_primary_refuted :
  exists orig alt : bytes,
    wire_primary_raw orig <> wire_primary_raw alt /\ wire_primary_raw alt <> None /\ verdict orig alt = 1.
Proof. exists Wit.orig, Wit.alt_primary. exact Wit.primary_refuted. Qed.
Print Assumptions C03_wire_primary_refuted.

Theorem C03_wire_source_refuted :
  exists orig alt : bytes,
    wire_sources_raw orig <> wire_sources_raw alt /\ wire_sources_raw alt <> None /\
    length orig = length alt /\ verdict orig alt = 1.
Proof. exists Wit.orig, Wit.alt_source. exact Wit.source_refuted. Qed.
Print Assumptions C03_wire_source_refuted.
