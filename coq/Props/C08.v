(** Property C08 - Block CRCs are always valid on output and always checked on input.

    Model: [Model/Bundle.v] ([with_crc_primary] / [with_crc_block] / [with_crc_bundle] = the model of
    [AbstractBlock.update_crc] / [Bundle.update_all_crc]; [crc_ok_primary] / [crc_ok_block] /
    [crc_ok_bundle] = [check_crc] / [check_all_crc] on a STRICTLY decoded block), [Model/BundleCrc.v]
    (octet-level vocabulary; the LAX reading of canonical blocks that the implementation really
    performs), [Model/BpAgent.v] ([recv] = [Agent.recv_bundle], CRC verdict as the input [b_crc_ok]),
    [Gen/CrcTable.v] (translated from [AbstractBlock.CRC_DEFN] on every run).  CRC algorithms:
    [Lib/Crc.v]; "independent implementation" = the polynomial-division definitions [crc_spec_x25] /
    [crc_spec_32c], which share no code with the executable shift-register definitions the model uses.

    FULL-STRENGTH receive-side statement (NOT provable for the unchanged implementation, refuted below):

      C08_detect : for every received octet string that differs from a valid encoded bundle by a
                   single-bit flip or a burst of at most 16 (CRC-16) / 32 (CRC-32C) bits inside a
                   CRC-protected block, the implementation's verdict is "dropped".

    Why it fails: [check_crc] recomputes the CRC over the RE-ENCODING of the decoded block
    ([cbor2.dumps(self.build())]), not over the received octets.  Decoding is lax ([cbor2] accepts
    non-shortest heads; [UintField.m2i = int(x)], [BstrField.m2i = bytes(x)] coerce or fall back to
    None), so corrupted octets can decode to a block whose re-encoding is a DIFFERENT octet string
    (even of a different length); the burst theorem says nothing about that string, and the check passes
      (a) always, when the decoded values equal the original ones (a re-spelling such as
          0x01 -> 0xf5: CBOR true read as 1) - [C08_detect_refuted_same_value];
      (a') when only an EID differs and the implementation's EID text conversion maps the altered
          text back to the original octets ('/' -> '?': urlsplit drops the query) -
          [C08_detect_refuted_eid];
      (b) when the CRC of the re-encoding collides with the stored value (1 in 2^16 / 2^32 corruptions
          of that kind; a CRC-16 instance found by search) - [C08_detect_refuted]: one bit turns the
          BTSD head from bstr into tstr, the BTSD is read as None, and the bundle is accepted and
          delivered without its payload.
    What is proved instead ([C08_detect_burst_partial], [C08_detect_field_corruption] and the primary
    block versions) carries the hypothesis that the decoded block re-encodes to exactly the received
    octets ([encode_cblock b' = pre' ++ v]; automatic when the octets decode strictly,
    [C08_detect_burst_decoded]) and that the CRC type item itself is unchanged.  The second hypothesis
    is not a gap of the implementation but of RFC 9171: the CRC type is part of the protected data, so
    a burst that turns type 1 into type 2 (and moves the block boundaries accordingly) makes ANY
    receiver check a different polynomial over a different field.  Likewise not covered by any
    theorem (and by no receiver): bursts that straddle the boundary between the protected part and the
    CRC value (the value is stored big-endian, not in polynomial bit order). *)
From Coq Require Import List NArith.
From DTN Require Import Lib.Bytes Lib.Cbor Lib.Crc Model.Bundle Model.BundleCrc Proofs.BundleCrcProofs.
From DTN Require Model.BpAgent Gen.CrcTable.
Import ListNotations.
Local Open Scope N_scope.

(** * Output *)

(** [crc_valid_octets ct enc] unfolds to
      (ct = 1 -> exists pre, enc = pre ++ be 2 (crc_spec_x25 (pre ++ [0; 0]))) /\
      (ct = 2 -> exists pre, enc = pre ++ be 4 (crc_spec_32c (pre ++ [0; 0; 0; 0])))
    i.e. the last 2 / 4 octets of the encoded block are the big-endian CRC-16/X.25 / CRC-32C, by
    polynomial division, of the whole encoded block with those octets replaced by zeros - what an
    independent receiver recomputes from the octets on the wire. *)
Theorem C08_tx_valid : forall b : bundle,
  encode_bundle (with_crc_bundle b) =
    159 :: encode_primary (with_crc_primary (prim b))
        ++ concat (map (fun blk => encode_cblock (with_crc_block blk)) (blocks b)) ++ [255]
  /\ crc_valid_octets (crc_type (prim b)) (encode_primary (with_crc_primary (prim b)))
  /\ Forall (fun blk => crc_valid_octets (bcrc_type blk) (encode_cblock (with_crc_block blk))) (blocks b).
Proof. exact tx_valid_bundle. Qed.
Print Assumptions C08_tx_valid.

(** the same, spelled out for one canonical block *)
Theorem C08_tx_valid_block : forall b : cblock,
  (bcrc_type b = 1 -> exists pre, encode_cblock (with_crc_block b) = pre ++ be 2 (crc_spec_x25 (pre ++ [0; 0]))) /\
  (bcrc_type b = 2 -> exists pre, encode_cblock (with_crc_block b) = pre ++ be 4 (crc_spec_32c (pre ++ [0; 0; 0; 0]))).
Proof. exact tx_valid_block. Qed.
Print Assumptions C08_tx_valid_block.

(** ... and the message the CRC was computed over ([pre] ++ zeros) is the encoding of the block with a
    zero-filled CRC field of the right width *)
Theorem C08_tx_zeroed : forall (b : cblock) (pre v : bytes),
  bcrc_type b = 1 \/ bcrc_type b = 2 ->
  encode_cblock (with_crc_block b) = pre ++ v -> length v = crc_width (bcrc_type b) ->
  encode_cblock (zero_block b) = pre ++ repeat 0 (crc_width (bcrc_type b)).
Proof. exact tx_zeroed_block. Qed.
Print Assumptions C08_tx_zeroed.

Example C08_tx_zeroed_nonvacuous :
  bcrc_type ex_block = 1 /\ exists pre v, encode_cblock (with_crc_block ex_block) = pre ++ v /\ length v = 2%nat.
Proof. split; [reflexivity|]. exists ex_pre. eexists. vm_compute. split; reflexivity. Qed.

(** CRC type 0: the encoded block array has no CRC item (5 items, head 0x85; primary 8, or 10 for a fragment) *)
Theorem C08_type0_no_field :
  (forall b : cblock, bcrc_type b = 0 ->
     bcrc (with_crc_block b) = None
     /\ length (cblock_items (with_crc_block b)) = 5%nat
     /\ hd_error (encode_cblock (with_crc_block b)) = Some 133)
  /\ (forall p : primary, crc_type p = 0 ->
     crc (with_crc_primary p) = None
     /\ length (primary_items (with_crc_primary p)) = match frag p with Some _ => 10%nat | None => 8%nat end).
Proof. split; [exact type0_block | exact type0_primary]. Qed.
Print Assumptions C08_type0_no_field.

(** non-zero CRC type: exactly one more item, a byte string of 2 / 4 octets *)
Theorem C08_typeN_field : forall b : cblock, bcrc_type b = 1 \/ bcrc_type b = 2 ->
  length (cblock_items (with_crc_block b)) = 6%nat
  /\ exists v, bcrc (with_crc_block b) = Some v /\ length v = crc_width (bcrc_type b).
Proof. exact typeN_block. Qed.
Print Assumptions C08_typeN_field.

(** the table in [blocks.py] (algorithm names, pack formats, enum values) is the one modelled *)
Theorem C08_gen_table :
  (forall (ct : N) (bs : bytes), CrcTable.gen_crc_field ct bs = crc_field ct bs)
  /\ (forall ct : N, In ct CrcTable.crc_type_values <-> crc_type_ok ct = true)
  /\ (forall ct : N, In ct CrcTable.crc_type_values ->
        CrcTable.gen_crc_zero ct = crc_zero ct /\ CrcTable.gen_crc_width ct = crc_width ct).
Proof. split; [exact gen_table_field|]. split; [exact gen_table_types | exact gen_table_zero]. Qed.
Print Assumptions C08_gen_table.

(** * Input *)

Theorem C08_check_accepts_valid :
  (forall b : cblock, crc_ok_block (with_crc_block b) = true)
  /\ (forall p : primary, crc_ok_primary (with_crc_primary p) = true)
  /\ (forall b : bundle, crc_ok_bundle (with_crc_bundle b) = true).
Proof. split; [exact check_accepts_block|]. split; [exact check_accepts_primary | exact check_accepts_bundle]. Qed.
Print Assumptions C08_check_accepts_valid.

(** [pre ++ v]: encoding of a block [b] with a correct CRC, [v] its CRC value octets (the last 2 / 4).
    [pre' ++ v]: received octets, differing from it by a non-zero burst of at most 16 / 32 bits
    ([burst_apart]: equal lengths, bit order as fed to the CRC) lying in front of the CRC value.
    HYPOTHESES forced by the code: the block [b'] that the receiver decoded re-encodes to exactly the
    received octets, and its CRC type is that of [b].  Then the check fails. *)
Theorem C08_detect_burst_partial : forall (b b' : cblock) (pre pre' v : bytes),
  crc_ok_block b = true ->
  encode_cblock b = pre ++ v ->
  encode_cblock b' = pre' ++ v ->
  bcrc_type b' = bcrc_type b ->
  (bcrc_type b = 1 /\ length v = 2%nat /\ burst_apart 16 pre pre') \/
  (bcrc_type b = 2 /\ length v = 4%nat /\ burst_apart 32 pre pre') ->
  crc_ok_block b' = false.
Proof. exact detect_burst_block. Qed.
Print Assumptions C08_detect_burst_partial.

Example C08_detect_burst_partial_nonvacuous :
  crc_ok_block ex_block = true
  /\ (exists v, encode_cblock ex_block = ex_pre ++ v /\ encode_cblock ex_block' = ex_pre' ++ v /\ length v = 2%nat)
  /\ bcrc_type ex_block' = bcrc_type ex_block /\ bcrc_type ex_block = 1
  /\ burst_apart 16 ex_pre ex_pre'
  /\ crc_ok_block ex_block' = false.
Proof. exact detect_burst_block_hyps. Qed.

(** when the received octets are accepted by the strict (shortest-form, definite-length, exact CBOR
    types) decoder the re-encoding hypothesis holds by itself *)
Corollary C08_detect_burst_decoded : forall (b b' : cblock) (pre pre' v : bytes) (c : cbor),
  crc_ok_block b = true ->
  encode_cblock b = pre ++ v ->
  decode_one_strict (pre' ++ v) = Some c -> cblock_of_cbor c = Some b' ->
  bcrc_type b' = bcrc_type b ->
  (bcrc_type b = 1 /\ length v = 2%nat /\ burst_apart 16 pre pre') \/
  (bcrc_type b = 2 /\ length v = 4%nat /\ burst_apart 32 pre pre') ->
  crc_ok_block b' = false.
Proof. exact detect_burst_block_decoded. Qed.
Print Assumptions C08_detect_burst_decoded.

(** any change of the stored CRC octets themselves is detected (same hypotheses) *)
Theorem C08_detect_field_corruption : forall (b b' : cblock) (pre v v' : bytes),
  crc_ok_block b = true ->
  encode_cblock b = pre ++ v ->
  encode_cblock b' = pre ++ v' ->
  bcrc_type b' = bcrc_type b ->
  length v' = length v -> v' <> v ->
  (bcrc_type b = 1 /\ length v = 2%nat) \/ (bcrc_type b = 2 /\ length v = 4%nat) ->
  crc_ok_block b' = false.
Proof. exact detect_field_block. Qed.
Print Assumptions C08_detect_field_corruption.

(** the primary block, both clauses *)
Theorem C08_detect_burst_primary_partial : forall (p p' : primary) (pre pre' v : bytes),
  crc_ok_primary p = true ->
  encode_primary p = pre ++ v ->
  encode_primary p' = pre' ++ v ->
  crc_type p' = crc_type p ->
  (crc_type p = 1 /\ length v = 2%nat /\ burst_apart 16 pre pre') \/
  (crc_type p = 2 /\ length v = 4%nat /\ burst_apart 32 pre pre') ->
  crc_ok_primary p' = false.
Proof. exact detect_burst_primary. Qed.
Print Assumptions C08_detect_burst_primary_partial.

Theorem C08_detect_field_corruption_primary : forall (p p' : primary) (pre v v' : bytes),
  crc_ok_primary p = true ->
  encode_primary p = pre ++ v ->
  encode_primary p' = pre ++ v' ->
  crc_type p' = crc_type p ->
  length v' = length v -> v' <> v ->
  (crc_type p = 1 /\ length v = 2%nat) \/ (crc_type p = 2 /\ length v = 4%nat) ->
  crc_ok_primary p' = false.
Proof. exact detect_field_primary. Qed.
Print Assumptions C08_detect_field_corruption_primary.

Example C08_detect_primary_nonvacuous :
  crc_ok_primary (prim BundleProofs.real_bundle) = true /\ crc_type (prim BundleProofs.real_bundle) = 2
  /\ Forall (fun b => crc_ok_block b = true) (blocks BundleProofs.real_bundle)
  /\ map bcrc_type (blocks BundleProofs.real_bundle) = [1; 0; 2].
Proof. exact detect_hyps_real_bundle. Qed.

(** The CRC gate is the first step of [recv_bundle]: a bundle with a failing block is dropped with the
    agent state (seen set, reassembly store, clock) unchanged and no event (delivery, transmission,
    report) at all.  [ab] is the agent model's view of the decoded bundle [bu]. *)
Theorem C08_gate_first :
  forall (matches : N -> BpAgent.eid -> bool) (a : BpAgent.agent) (ab : BpAgent.bundle) (bu : bundle),
    BpAgent.b_crc_ok ab = crc_ok_bundle bu ->
    crc_ok_primary (prim bu) = false \/ (exists blk, In blk (blocks bu) /\ crc_ok_block blk = false) ->
    BpAgent.recv matches a ab = (a, [(ab, [])]).
Proof. exact gate_first. Qed.
Print Assumptions C08_gate_first.

(** Left-over items after a canonical block's declared fields (e.g. the whole following block, after a
    one-bit change of the array head 0x86 -> 0x87) or a CRC item left over after the CRC type became 0:
    [arity_verdict bs = 1] says that some canonical block array of the received octets has an item count
    other than 5 (CRC type 0) / 6 (otherwise).  No reading of the model - strict or lax - decodes such
    octets: the bundle is undecodable, hence dropped.  (The implementation relies for this on an exception
    out of scapy's payload dissection; the check compares on every structural corruption.) *)
Theorem C08_leftover_items_rejected : forall bs : bytes,
  arity_verdict bs = 1 -> decode_bundle bs = None /\ lax_decode_bundle bs = None.
Proof. exact arity_bad_rejected. Qed.
Print Assumptions C08_leftover_items_rejected.

Example C08_leftover_items_nonvacuous :
  arity_verdict arity_witness_octets = 2 /\ strict_verdict arity_witness_octets = (2, true)
  /\ arity_verdict (xor_at 54 [1] arity_witness_octets) = 1
  /\ arity_verdict (xor_at 60 [2] arity_witness_octets) = 1.
Proof. exact arity_bad_nonvacuous. Qed.

(** * The full statement is false for the implementation as it is *)

(** A valid bundle (all blocks CRC-16, payload " 0e") and ONE flipped bit (0x20 of octet 44, the head of
    the payload block's BTSD, inside the protected block and in front of its CRC value): an independent
    receiver finds the CRC wrong, the implementation's check - modelled by the lax reading - passes, the
    payload has become None, and the re-encoding it checked is not what was received. *)
Theorem C08_detect_refuted :
  wf_bundle witness_bundle /\ crc_ok_bundle witness_bundle = true
  /\ crc_type (prim witness_bundle) = 1 /\ map bcrc_type (blocks witness_bundle) = [1]
  /\ encode_bundle witness_bundle = witness_octets
  /\ (exists pre blk, witness_octets = pre ++ blk ++ [255]
                      /\ blk = encode_cblock (with_crc_block (mkCBlock 1 1 0 1 [32; 48; 101] None))
                      /\ length pre = 39%nat /\ length blk = 12%nat)
  /\ crc16_x25 (firstn 10 (skipn 39 witness_corrupted) ++ [0; 0]) <> unbe (firstn 2 (skipn 49 witness_corrupted))
  /\ lax_verdict witness_corrupted = 2
  /\ (exists p lb, lax_decode_bundle witness_corrupted = Some (p, [lb]) /\ l_btsd lb = None
                   /\ lax_crc_ok_block lb = true /\ lblock_reencode lb <> firstn 12 (skipn 39 witness_corrupted)).
Proof. exact detect_refuted. Qed.
Print Assumptions C08_detect_refuted.

(** A 6-bit burst (0x01 -> 0xf5 in the block type code) that re-spells the same value: accepted, the
    re-encoding is the ORIGINAL block, not the received one. *)
Theorem C08_detect_refuted_same_value :
  lax_verdict (xor_at 40 [244] witness_octets) = 2
  /\ (exists p lb, lax_decode_bundle (xor_at 40 [244] witness_octets) = Some (p, [lb])
                   /\ lblock_reencode lb = firstn 12 (skipn 39 witness_octets)
                   /\ lblock_reencode lb <> firstn 12 (skipn 39 (xor_at 40 [244] witness_octets))).
Proof. exact detect_refuted_same_value. Qed.
Print Assumptions C08_detect_refuted_same_value.

(** One bit in the source EID of a CRC-16 protected primary block (//a/ -> //a?): the strict reading
    fails the check, but the implementation re-encodes the EID through its text conversion (urlsplit
    drops the query, the empty path becomes "/") - the re-encoding is the ORIGINAL primary block, the
    check passes, and the bundle is processed under the altered source. *)
Theorem C08_detect_refuted_eid :
  strict_verdict eid_witness_octets = (2, true)
  /\ lax_verdict (xor_at 26 [16] eid_witness_octets) = 2
  /\ (exists b, decode_bundle (xor_at 26 [16] eid_witness_octets) = Some b
                /\ src (prim b) = EidDtn [47; 47; 97; 63]
                /\ crc_ok_primary (prim b) = false
                /\ crc_ok_primary (impl_norm_primary (prim b)) = true
                /\ encode_primary (impl_norm_primary (prim b)) = firstn 49 (skipn 1 eid_witness_octets)).
Proof. exact detect_refuted_eid. Qed.
Print Assumptions C08_detect_refuted_eid.
