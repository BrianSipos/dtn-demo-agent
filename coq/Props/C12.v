(** C12 - A bundle with an unverifiable security block is never delivered.

    Model: Model/BpSecChain.v, [recv_sec c secs data] = the receive chain of bp/agent.py from the BPSec
    steps (order 19 [_verify_bcb], order 20 [_verify_bib]) to the application steps (order 30) and the
    'delete' / 'deliver' tail of [recv_bundle], for a bundle the routing steps marked 'deliver'.
    [secs] = the type-11/12 blocks of the bundle in wire order, each with its verdicts as INPUT
    ([s_visible], [s_ctx], [s_pre], per target [TOk] / [TFail code] / [TRaise]; their cryptographic
    meaning is C03 / C16); [blk_result s] = what [ctx.verify_bib/bcb] answers for the block
    ([VNone] = verified for every target, [VCode c], [VRaised] = an exception escaped).
    Result: [r_reached] (the chain got to the application steps), [r_app] (what an application step
    finds when 'deliver' is recorded), [r_out] = [Delivered payload blocks] | [Deleted reason] | [Dropped].

    Full-strength statement demanded by the property (FALSE for the code as it is, see
    [C12_invisible_refuted]):

      forall c secs data,
        (exists s, In s secs /\ (s_visible s = false \/ blk_result s <> VNone)) ->
        r_reached (recv_sec c secs data) = false /\ r_app (recv_sec c secs data) = None
        /\ exists code, r_out (recv_sec c secs data) = Deleted code /\ 12 <= code <= 16.

    What is proved:
      [C12_fail_closed_partial]  the statement for VISIBLE blocks (the guard excludes exactly the known
                                 finding), for any number and order of blocks, whether the context answers
                                 a failure code or an exception escapes it: no application step, marked
                                 deleted, reason in 12..16 (the codes the contexts answer being security
                                 reasons); [C12_never_delivered] is the part that needs no premise on codes;
      [C12_invisible_refuted]    a type-11/12 block whose BTSD does not dissect is not verified at all and
                                 the bundle is delivered  (DESIGN section 7 #12, known finding);
      [C12_pass_through_accept], [C12_pass_through_keep], [C12_no_security_blocks];
      [C12_live_iteration_refuted]  what the original tree (iteration over the live list) got wrong and
                                 the fixed iteration gets right (DESIGN section 7 #11).
    An exception escaping [verify_bib]/[verify_bcb] counts as FAILED_SEC ([step_code VRaised]), as in the
    repository since commit d956b1c; the inputs on which the code before it gave a text reason (no report)
    or made [max()] raise (neither delivered nor marked deleted) are harness/corpus/C12_text_reason.json
    and C12_mixed_reasons_dropped.json. *)
From Coq Require Import NArith List Bool.
From DTN Require Import Model.BpSecChain Gen.BpsecLoops Proofs.BpSecChainProofs Proofs.BpsecLoopsProofs.
Import ListNotations.
Local Open Scope N_scope.

Theorem C12_never_delivered :
  forall (c : cfg) (secs : list secblk) (data : datamap),
    (exists s, In s secs /\ s_visible s = true /\ blk_result s <> VNone) ->
    r_reached (recv_sec c secs data) = false
    /\ r_app (recv_sec c secs data) = None
    /\ exists code, r_out (recv_sec c secs data) = Deleted code.
Proof. exact never_delivered. Qed.
Print Assumptions C12_never_delivered.

(* non-vacuity: BCB fine, first BIB fine, third block (a BIB, last on the wire) fails on its 2nd target *)
Example C12_never_delivered_example :
  let secs := [mkSec false 2 true true PreOk [(1, TOk 0)];
               mkSec true 3 true true PreOk [(1, TOk 8)];
               mkSec false 4 true true PreOk [(5, TOk 0); (1, TFail 15)]] in
  (exists s, In s secs /\ s_visible s = true /\ blk_result s <> VNone)
  /\ render (recv_sec (mkCfg true) secs [(5, 6); (1, 9)]) = (false, [], (1, 15, ([], []))).
Proof.
  split; [|vm_compute; reflexivity].
  eexists. split; [right; right; left; reflexivity|]. split; [reflexivity|]. vm_compute. discriminate.
Qed.

Theorem C12_fail_closed_partial :
  forall (c : cfg) (secs : list secblk) (data : datamap),
    (exists s, In s secs /\ s_visible s = true /\ blk_result s <> VNone) ->
    (forall s code, In s secs -> s_visible s = true -> blk_result s = VCode code -> sec_reason code = true) ->
    r_reached (recv_sec c secs data) = false
    /\ r_app (recv_sec c secs data) = None
    /\ exists code, r_out (recv_sec c secs data) = Deleted code /\ 12 <= code <= 16.
Proof. exact fail_closed. Qed.
Print Assumptions C12_fail_closed_partial.

(* non-vacuity: unknown context (13) in one BIB, an exception escaping the next one (absent target), a third
   that verifies: deleted with the larger code 15 *)
Example C12_fail_closed_partial_example :
  let secs := [mkSec false 2 true false PreOk [(1, TOk 0)];
               mkSec false 3 true true PreOk [(77, TRaise)];
               mkSec false 4 true true PreOk [(1, TOk 0)]] in
  (exists s, In s secs /\ s_visible s = true /\ blk_result s = VRaised)
  /\ forallb (fun s => match blk_result s with VCode code => sec_reason code | _ => true end) secs = true
  /\ render (recv_sec (mkCfg true) secs [(1, 9)]) = (false, [], (1, 15, ([], []))).
Proof.
  split; [|vm_compute; split; reflexivity].
  eexists. split; [right; left; reflexivity|]. split; reflexivity.
Qed.

Theorem C12_invisible_refuted :
  exists (c : cfg) (secs : list secblk) (data : datamap),
    (exists s, In s secs /\ s_visible s = false)
    /\ exists p v, r_out (recv_sec c secs data) = Delivered p v /\ r_app (recv_sec c secs data) = Some (p, v).
Proof. exact invisible_refuted. Qed.
Print Assumptions C12_invisible_refuted.

(** All visible security blocks verify, acceptance configured: delivered, every verified block removed,
    every BCB target replaced by its plaintext, everything else (including blocks the chain cannot see)
    untouched. *)
Theorem C12_pass_through_accept :
  forall (c : cfg) (secs : list secblk) (data : datamap),
    accept_after_verify c = true ->
    (forall s, In s secs -> s_visible s = true -> blk_result s = VNone) ->
    let v := mkView (decrypted secs data) [] in
    recv_sec c secs data = mkRes true (Some (btsd_of PAYLOAD_NUM (v_data v), v))
                                 (Delivered (btsd_of PAYLOAD_NUM (v_data v)) v).
Proof. exact pass_through_accept. Qed.
Print Assumptions C12_pass_through_accept.

Example C12_pass_through_accept_example :
  let secs := [mkSec false 2 true true PreOk [(5, TOk 0)];
               mkSec true 3 true true PreOk [(1, TOk 8)];
               mkSec false 4 true true PreOk [(1, TOk 0); (5, TOk 0)]] in
  forallb (fun s => match blk_result s with VNone => true | _ => false end) secs = true
  /\ render (recv_sec (mkCfg true) secs [(5, 6); (1, 9)])
     = (true, [(8, ([(5, 6); (1, 8)], []))], (0, 8, ([(5, 6); (1, 8)], []))).
Proof. vm_compute. split; reflexivity. Qed.

(** All visible security blocks verify, acceptance not configured: delivered exactly as received.
    (Block numbers are unique - [BundleContainer.reload] refuses a bundle otherwise - and every block
    lists at least one target, RFC 9172 3.6; a block with an empty target list is removed by
    [verify_bib] even without acceptance, see the example below.) *)
Theorem C12_pass_through_keep :
  forall (c : cfg) (secs : list secblk) (data : datamap),
    accept_after_verify c = false ->
    NoDup (map s_num (filter s_visible secs)) ->
    (forall s, In s secs -> s_visible s = true -> s_tgts s <> []) ->
    (forall s, In s secs -> s_visible s = true -> blk_result s = VNone) ->
    let v := view_of secs data in
    recv_sec c secs data = mkRes true (Some (btsd_of PAYLOAD_NUM data, v)) (Delivered (btsd_of PAYLOAD_NUM data) v).
Proof. exact pass_through_keep. Qed.
Print Assumptions C12_pass_through_keep.

Example C12_pass_through_keep_example :
  let secs := [mkSec false 2 true true PreOk [(5, TOk 0)];
               mkSec true 3 true true PreOk [(1, TOk 8)];
               mkSec false 4 true true PreOk [(1, TOk 0); (5, TOk 0)]] in
  forallb (fun s => match blk_result s with VNone => true | _ => false end) secs = true
  /\ render (recv_sec (mkCfg false) secs [(5, 6); (1, 9)])
     = (true, [(9, ([(5, 6); (1, 9)], [(2, [5]); (3, [1]); (4, [1; 5])]))],
        (0, 9, ([(5, 6); (1, 9)], [(2, [5]); (3, [1]); (4, [1; 5])]))).
Proof. vm_compute. split; reflexivity. Qed.

(* the quirk excluded by the third hypothesis: a BIB with no target is dropped without acceptance *)
Example C12_empty_target_list_removed :
  render (recv_sec (mkCfg false) [mkSec false 2 true true PreOk []] [(1, 9)])
  = (true, [(9, ([(1, 9)], []))], (0, 9, ([(1, 9)], []))).
Proof. vm_compute. reflexivity. Qed.

Theorem C12_no_security_blocks :
  forall (c : cfg) (data : datamap),
    recv_sec c [] data =
    mkRes true (Some (btsd_of PAYLOAD_NUM data, mkView data [])) (Delivered (btsd_of PAYLOAD_NUM data) (mkView data [])).
Proof. exact no_security_blocks. Qed.
Print Assumptions C12_no_security_blocks.

(** The original tree walked the live list: with acceptance on, a verified first BIB is removed and the
    BIB after it is skipped - delivered although it does not verify; the fixed iteration deletes it. *)
Theorem C12_live_iteration_refuted :
  exists (c : cfg) (secs : list secblk) (data : datamap),
    (exists s, In s secs /\ s_visible s = true /\ blk_result s <> VNone)
    /\ (exists p v, r_out (recv_sec_live c secs data) = Delivered p v)
    /\ r_out (recv_sec c secs data) = Deleted FAILED_SEC.
Proof. exact live_iteration_refuted. Qed.
Print Assumptions C12_live_iteration_refuted.

(** The detached-payload rule of [decode_msg]: the verdict of a security operation is computed on the target
    block's current data; a payload / ciphertext attached inside the COSE structure never takes its place
    (so a target that differs from what the security source protected cannot be covered up by attaching
    the original).  [open] is the cryptographic check, any function. *)
Theorem C12_verdict_ignores_payload_slot :
  forall (open : N -> N -> option N) (data : datamap) (t auth : N) (slot1 slot2 : option N),
    target_verdict open data t (mkMsg auth slot1) = target_verdict open data t (mkMsg auth slot2).
Proof. exact verdict_ignores_slot. Qed.
Print Assumptions C12_verdict_ignores_payload_slot.

Theorem C12_verdict_on_current_target_data :
  forall (open : N -> N -> option N) (data : datamap) (t : N) (m : cose_msg),
    target_verdict open data t m =
    match open (m_auth m) (btsd_of t data) with Some p => TOk p | None => TFail FAILED_SEC end.
Proof. exact verdict_on_current_data. Qed.
Print Assumptions C12_verdict_on_current_target_data.

(** Tie to the source: the loop structure the translator reads off bp/app/bpsec.py (Gen/BpsecLoops.v,
    regenerated on every run; any other shape of the loops makes the translator fail closed).

    (1) [Bpsec._verify_bcb] / [_verify_bib] iterate over a snapshot of [ctr.block_type(...)]: the chain with
        the iteration kinds of the source IS [recv_sec], so the fail-closed theorem holds for it.  (Were either
        generated boolean [false] - iteration over the live list - this proof would not type-check;
        [C12_live_walk_skips_a_block] shows what would go wrong.) *)
Theorem C12_source_chain_fail_closed :
  forall (c : cfg) (secs : list secblk) (data : datamap),
    (exists s, In s secs /\ s_visible s = true /\ blk_result s <> VNone) ->
    (forall s code, In s secs -> s_visible s = true -> blk_result s = VCode code -> sec_reason code = true) ->
    let r := recv_sec_as verify_bcb_iterates_snapshot verify_bib_iterates_snapshot c secs data in
    r_reached r = false /\ r_app r = None /\ exists code, r_out r = Deleted code /\ 12 <= code <= 16.
Proof. exact source_chain_fail_closed. Qed.
Print Assumptions C12_source_chain_fail_closed.

Theorem C12_snapshot_walk_counts_every_block :
  forall (c : cfg) (l : list secblk) (v : view) (s : secblk),
    In s l -> blk_result s <> VNone -> snd (verify_all c l v) <> [].
Proof. exact snapshot_counts_every_block. Qed.
Print Assumptions C12_snapshot_walk_counts_every_block.

Theorem C12_live_walk_skips_a_block :
  exists (c : cfg) (secs : list secblk) (v : view) (s : secblk),
    In s secs /\ blk_result s <> VNone /\ snd (verify_live (S (length secs)) c secs false 0 v) = [].
Proof. exact live_skips_a_block. Qed.
Print Assumptions C12_live_walk_skips_a_block.

(** (2) [CoseContext.verify_bib] / [verify_bcb] look the result of every target up by its index: with the loop
        kinds of the source every target is visited, and a target that has no result makes the block fail. *)
Theorem C12_source_target_loop_covers_every_target :
  forall (R : Type) (targets : list N) (results : list R),
    map fst (target_loop R verify_bib_results_by_index targets results) = targets
    /\ map fst (target_loop R verify_bcb_results_by_index targets results) = targets.
Proof. exact source_target_loop_covers. Qed.
Print Assumptions C12_source_target_loop_covers_every_target.

Theorem C12_source_target_without_result_fails :
  forall (R : Type) (judge : N -> R -> tres) (targets : list N) (results : list R) (t : N) (k : nat),
    nth_error targets k = Some t -> nth_error results k = None ->
    tgts_result (verdicts R judge (target_loop R verify_bib_results_by_index targets results)) <> VNone
    /\ tgts_result (verdicts R judge (target_loop R verify_bcb_results_by_index targets results)) <> VNone.
Proof. exact source_target_without_result_fails. Qed.
Print Assumptions C12_source_target_without_result_fails.

Theorem C12_zip_skips_a_target :
  exists (targets : list N) (results : list N) (t : N),
    In t targets /\ ~ In t (map fst (target_loop N false targets results))
    /\ tgts_result (verdicts N (fun _ r => TOk r) (target_loop N false targets results)) = VNone.
Proof. exact zip_skips_a_target. Qed.
Print Assumptions C12_zip_skips_a_target.

Theorem C12_zip_covers_only_the_shorter_list :
  forall (R : Type) (targets : list N) (results : list R),
    length (target_loop R false targets results) = Nat.min (length targets) (length results).
Proof. exact by_zip_length. Qed.
Print Assumptions C12_zip_covers_only_the_shorter_list.

(** (3) an exception escaping [ctx.verify_bib] / [ctx.verify_bcb] is entered into the failure list as FAILED_SEC,
        which is what the model's [step_code VRaised] says. *)
Theorem C12_source_exception_is_failed_sec :
  exception_code verify_bib_exception_failed_sec = step_code VRaised
  /\ exception_code verify_bcb_exception_failed_sec = step_code VRaised.
Proof. exact source_exception_is_failed_sec. Qed.
Print Assumptions C12_source_exception_is_failed_sec.
