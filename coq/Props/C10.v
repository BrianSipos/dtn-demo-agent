(** C10 - BP agent processes each received bundle at most once and routes by first match.

    Model: Model/BpAgent.v ([recv_core] = one call of Agent.recv_bundle, [recv] = one bundle from the CL
    with the re-injection of a completed reassembly, [run] = a history).  [matches] is Python's
    [pattern.match(eid) is not None]; every theorem holds for every such function.
    Events: [EvDeliver] (delivery callback), [EvTx]/[EvFrags] (bundle handed to the CL whole / as
    fragments), [EvReport]/[EvReportFrags] (status report handed to the CL), [EvSendFail]. *)
From Coq Require Import NArith List Bool.
From Coq Require Import String.
From DTN Require Import Gen.Chain Gen.RecvGates Model.BpAgent Proofs.BpAgentProofs Proofs.BpAgentGates.
Import ListNotations.
Local Open Scope N_scope.

(** For all histories (any initial agent state, any routing tables, repeats, fragments, look-alikes):
    at most one processing with any effect per identity. *)
Theorem C10_at_most_once :
  forall (matches : N -> eid -> bool) (hist : list bundle) (a : agent) (i : ident),
    (List.length (acts_on i (snd (run matches a hist))) <= 1)%nat.
Proof. exact at_most_once. Qed.
Print Assumptions C10_at_most_once.

(** A repeat of an identity already seen causes no delivery, forwarding or report and changes nothing. *)
Theorem C10_repeat_ignored :
  forall (matches : N -> eid -> bool) (a : agent) (b : bundle),
    In (ident_of b) (a_seen a) -> recv matches a b = (a, [(b, [])]).
Proof. exact duplicate_ignored. Qed.
Print Assumptions C10_repeat_ignored.

(** After any processing with an effect the identity is in the seen set (so the next copy is a repeat). *)
Theorem C10_acted_then_seen :
  forall (matches : N -> eid -> bool) (a : agent) (b : bundle),
    snd (fst (recv_core matches a b)) <> [] ->
    ~ In (ident_of b) (a_seen a) /\ In (ident_of b) (a_seen (fst (fst (recv_core matches a b)))).
Proof. exact recv_core_acted. Qed.
Print Assumptions C10_acted_then_seen.

Theorem C10_own_source_ignored :
  forall (matches : N -> eid -> bool) (a : agent) (b : bundle),
    b_src b = a_node a -> recv matches a b = (a, [(b, [])]).
Proof. exact own_source_ignored. Qed.
Print Assumptions C10_own_source_ignored.

(** The action is that of the FIRST receive route whose pattern matches the destination
    ([find] returns the first element satisfying the test). *)
Theorem C10_first_match :
  forall (matches : N -> eid -> bool) (a : agent) (b : bundle),
    accepted a b = true -> local_dest a b = false ->
    let act := option_map snd (find (fun r => matches (fst r) (b_dst b)) (a_rx a)) in
    let evs := snd (fst (recv_core matches a b)) in
    (has_deliver evs = true -> act = Some ADlv)
    /\ (has_tx evs = true -> act = Some AFwd)
    /\ (act = Some ADlv -> b_frag b = None -> (has_deliver evs = true <-> b_sec b = None) /\ has_tx evs = false)
    /\ (act = Some AFwd -> has_deliver evs = false /\ has_tx evs = negb (prep_fails b) && tx_ok matches a b)
    /\ (act <> Some ADlv -> act <> Some AFwd -> has_deliver evs = false /\ has_tx evs = false).
Proof. exact first_match. Qed.
Print Assumptions C10_first_match.

(** Bundles addressed to the node's own administrative endpoint (or to an endpoint a loaded application
    registered) are delivered whatever the table says - unless BPSec verification fails (C12). *)
Theorem C10_admin_delivered :
  forall (matches : N -> eid -> bool) (a : agent) (b : bundle),
    accepted a b = true -> local_dest a b = true -> b_frag b = None ->
    let evs := snd (fst (recv_core matches a b)) in
    (has_deliver evs = true <-> b_sec b = None) /\ has_tx evs = false.
Proof. exact local_delivered. Qed.
Print Assumptions C10_admin_delivered.

(** A bundle matching no route is neither delivered nor forwarded (indeed nothing at all happens). *)
Theorem C10_no_route_no_action :
  forall (matches : N -> eid -> bool) (a : agent) (b : bundle),
    accepted a b = true -> local_dest a b = false ->
    option_map snd (find (fun r => matches (fst r) (b_dst b)) (a_rx a)) = None ->
    snd (fst (recv_core matches a b)) = [] /\ snd (recv_core matches a b) = None.
Proof. exact no_route_no_action. Qed.
Print Assumptions C10_no_route_no_action.

(** Identities are equal iff all components are: look-alikes differing in one component are distinct. *)
Theorem C10_ident_inj :
  forall b1 b2 : bundle,
    ident_eqb (ident_of b1) (ident_of b2) = true
    <-> b_src b1 = b_src b2 /\ b_time b1 = b_time b2 /\ b_seq b1 = b_seq b2 /\ b_frag b1 = b_frag b2.
Proof. exact ident_inj. Qed.
Print Assumptions C10_ident_inj.

(** One received bundle, one action: in one call of recv_bundle at most one status report is built (handed to
    send_bundle), at most one delivery callback fires and the bundle is handed to a CL at most once.
    [count p evs] = number of events satisfying p; [is_report_ev] covers a report sent whole, as fragments,
    or failing in send_bundle.  (The tail of recv_bundle is translated into Gen/RecvTail.v; without the
    [return] of its delete branch this does not hold.) *)
Theorem C10_one_action_per_bundle :
  forall (matches : N -> eid -> bool) (a : agent) (b : bundle),
    let evs := snd (fst (recv_core matches a b)) in
    (count is_report_ev evs <= 1)%nat /\ (count is_deliver_ev evs <= 1)%nat /\ (count is_tx_ev evs <= 1)%nat.
Proof. exact one_finish. Qed.
Print Assumptions C10_one_action_per_bundle.

(** The finish step for EVERY action record: 'delete' takes precedence - one finish, nothing handed to a CL -
    also when 'deliver' and/or 'forward' are recorded too (an application step refusing a bundle already
    accepted for delivery); without 'delete', one finish unless both 'deliver' and 'forward' are recorded. *)
Theorem C10_delete_takes_precedence :
  forall (matches : N -> eid -> bool) (a : agent) (b : bundle) (acts : list action) (rsn : option N) (c : bool),
    let evs := snd (final matches a b acts rsn c) in
    (mem ADel acts = true -> (count is_report_ev evs <= 1)%nat /\ count is_tx_ev evs = 0%nat)
    /\ (mem ADlv acts && mem AFwd acts = false -> (count is_report_ev evs <= 1)%nat)
    /\ (count is_deliver_ev evs <= 1)%nat /\ (count is_tx_ev evs <= 1)%nat.
Proof. exact final_counts. Qed.
Print Assumptions C10_delete_takes_precedence.

(** The chain-step orders found in the source (Gen/Chain.v), stably sorted as Agent.__init__ does, give
    the step sequence the model follows. *)
Theorem C10_chain_order :
  chain_ids Gen.Chain.rx_steps =
    [("admin", "_rx_route"); ("sand", "_rx_route"); ("safe", "_rx_route"); ("agent", "_do_rx_step");
     ("fragment", "_reassemble"); ("bpsec", "_verify_bcb"); ("bpsec", "_verify_bib");
     ("admin", "_recv_bundle"); ("sand", "_recv_bundle"); ("safe", "_recv_bundle")]%string
  /\ chain_ids Gen.Chain.tx_steps =
    [("sand", "_tx_route"); ("agent", "_do_tx_step"); ("bpsec", "_apply_bib"); ("bpsec", "_apply_bcb");
     ("fragment", "_create")]%string.
Proof. exact chain_order. Qed.
Print Assumptions C10_chain_order.

(** Non-vacuity: concrete inputs satisfying the hypotheses, evaluated. *)

(* accepted, not local, first of two matching routes is 'forward' and the second 'deliver': forwarded *)
Example C10_first_match_example :
  let m := table_matches [(0, 9); (1, 9); (1001, 9); (1000, 7)] in
  let a := w_agent [(0, AFwd); (1, ADlv)] [w_rpt_route; w_fwd_route] in
  let b := w_bundle 1000 1 None in
  accepted a b = true /\ local_dest a b = false
  /\ has_tx (snd (fst (recv_core m a b))) = true /\ has_deliver (snd (fst (recv_core m a b))) = false.
Proof. vm_compute. repeat split. Qed.

Example C10_admin_delivered_example :
  let a := w_agent [(0, AFwd)] [w_rpt_route] in
  let b := mkBundle 5 1 7 1000 1 None ALL_REPORT_FLAGS 5 true None 0 95 true false in
  accepted a b = true /\ local_dest a b = true /\ has_deliver (snd (fst (recv_core w_matches a b))) = true.
Proof. vm_compute. repeat split. Qed.

(* a history with a repeat, a look-alike and two fragments: every identity acted on exactly once or never *)
Example C10_at_most_once_example :
  let a := w_agent [(0, AFwd)] [w_rpt_route; w_fwd_route] in
  let h := [w_bundle 1000 1 None; w_bundle 1000 1 None; w_bundle 1000 2 None;
            w_bundle 1000 1 (Some (0, 10)); w_bundle 1000 1 (Some (5, 10)); w_bundle 1000 1 (Some (0, 10))] in
  map (fun i => List.length (acts_on i (snd (run w_matches a h))))
      [ident_of (w_bundle 1000 1 None); ident_of (w_bundle 1000 2 None);
       ident_of (w_bundle 1000 1 (Some (0, 10))); ident_of (w_bundle 1000 1 (Some (5, 10)));
       ident_of (w_bundle 1000 3 None)]
  = [1; 1; 1; 1; 0]%nat.
Proof. vm_compute. reflexivity. Qed.

(* a bundle for the administrative endpoint that the admin element refuses (ACME record it rejects): the record
   holds receive, deliver and delete; ONE report, one delivery callback, nothing forwarded *)
Example C10_refused_example :
  let a := w_agent [] [w_rpt_route] in
  let b := mkBundle 5 1 7 1000 1 None ALL_REPORT_FLAGS 5 true None 0 95 true true in
  chain_acts w_matches a b = [ARecv; ADlv; ADel]
  /\ map (fun p => count p (snd (fst (recv_core w_matches a b)))) [is_report_ev; is_deliver_ev; is_tx_ev] = [1; 1; 0]%nat.
Proof. vm_compute. split; reflexivity. Qed.

Example C10_no_route_example :
  let a := w_agent [] [w_rpt_route] in
  let b := w_bundle 1000 1 None in
  accepted a b = true /\ local_dest a b = false
  /\ option_map snd (find (fun r => w_matches (fst r) (b_dst b)) (a_rx a)) = None.
Proof. vm_compute. repeat split. Qed.

(** Admission gates: the head of Agent.recv_bundle, translated into Gen/RecvGates.v.
    [run_gates gates a b] walks the gates as the source statements behave (a rejecting gate returns; the
    seen-set insert takes effect whatever follows it) and yields (admitted?, agent, 'receive' recorded?). *)

(** The gates in source order let through exactly the bundles the model's [recv_core] processes; when they let one through,
    the identity and 'receive' are recorded; when they reject, the agent is untouched. *)
Theorem C10_gates_match_model :
  forall (a : agent) (b : bundle),
    let '(ok, a', rcv) := run_gates recv_gates a b in
    ok = accepted a b /\ rcv = accepted a b
    /\ a' = (if accepted a b then set_seen a (a_seen a ++ [ident_of b]) else a).
Proof. exact gates_match_model. Qed.
Print Assumptions C10_gates_match_model.

(** The identity is recorded only after the CRC gate has passed: a bundle failing the CRC check leaves no
    trace (so a damaged copy cannot suppress the intact one). *)
Theorem C10_gates_crc_before_seen :
  forall (a : agent) (b : bundle),
    b_crc_ok b = false -> run_gates recv_gates a b = (false, a, false).
Proof. exact gates_crc_first. Qed.
Print Assumptions C10_gates_crc_before_seen.

(** [recv_core] leaves exactly the seen list the gates leave, and does nothing at all when they reject. *)
Theorem C10_gates_recv_core :
  forall (matches : N -> eid -> bool) (a : agent) (b : bundle),
    a_seen (fst (fst (recv_core matches a b))) = a_seen (snd (fst (run_gates recv_gates a b)))
    /\ (fst (fst (run_gates recv_gates a b)) = false -> recv_core matches a b = (a, [], None)).
Proof. exact gates_recv_core. Qed.
Print Assumptions C10_gates_recv_core.

Theorem C10_gates_order : recv_gates = [GCrc; GOwnSource; GSeenTest; GSeenRecord; GReceive].
Proof. exact gates_order. Qed.
Print Assumptions C10_gates_order.

(* non-vacuity: a CRC-damaged bundle is rejected with the seen list unchanged; the intact one is admitted *)
Example C10_gates_example :
  let a := w_agent [(0, AFwd)] [w_rpt_route] in
  let bad := mkBundle 5 9 7 1000 1 None ALL_REPORT_FLAGS 5 false None 0 95 true false in
  run_gates recv_gates a bad = (false, a, false)
  /\ fst (fst (run_gates recv_gates a (w_bundle 1000 1 None))) = true
  /\ a_seen (snd (fst (run_gates recv_gates a (w_bundle 1000 1 None)))) = [ident_of (w_bundle 1000 1 None)].
Proof. vm_compute. repeat split. Qed.
