(* C05 -- BP fragmentation keeps every fragment within the route MTU and loses nothing.

   Model: Model/BpFrag.v (fragment step of the TX chain and one whole send request) over
   the bundle codec of Model/Bundle.v.  Every decision and all arithmetic of
   Fragment._create is Gen/FragBudget.v, regenerated from src/bp/app/fragment.py on every
   run, so the statements below are re-proved against what the code says now.

     tx b                 the octets handed to the convergence layer for bundle b
                          (CRCs recomputed, RFC 9171 encoding)
     fragment_step b mtu  Unchanged | Frags l | Nothing (infeasible: the step raises before
                          anything is scheduled) | NoPayload | Stuck
     send_request sec b mtu
                          the octet strings given to the convergence layer for ONE send
                          request: sec (BPSec apply steps, orders 10/11), fragment step
                          (order 20); every fragment re-enters the whole chain.
     no_sec               security policy off (identity)
     frag_allowed b       neither NO_FRAGMENT nor IS_FRAGMENT is set
     one_payload b        exactly one block carries the payload block number
     sample n, gdata s n  (examples) a bundle with two extension blocks and n octets of payload; n octets of
                          test data from seed s (Proofs/BpFragProofs.v, Model/BpFrag.v)

   Security policy ON: every fragment re-enters send_bundle, so the security step runs
   again on it.  C05_within_mtu_sec_refuted: a step that only adds a block (and touches
   neither the primary block nor the payload) makes fragments exceed the MTU -- that is
   known finding "C05 / BPSec BIB policy on / fragments re-enter TX chain and grow past
   MTU (local send, own-source bundle)", witness harness/corpus/C05_secpolicy_oversize.json.
   C05_within_mtu_sec_partial: the bound holds for every security step that leaves
   bundles already marked as fragments alone.  C05_within_mtu is the policy-off instance. *)
From Coq Require Import List NArith ZArith Bool.
Import ListNotations.
From DTN Require Import Lib.Bytes Model.Bundle Gen.FragBudget Model.BpFrag Proofs.BpFragProofs.
Local Open Scope Z_scope.

(* ---- the size model: what is handed to the CL has exactly the size the budget uses *)
Theorem C05_tx_length : forall b : bundle, Z.of_nat (length (tx b)) = tx_size b.
Proof. exact tx_length. Qed.
Print Assumptions C05_tx_length.

(* ---- every bundle handed to the convergence layer encodes to at most the MTU: for ALL
        bundles (any payload length, CRC types, extension blocks) and ALL MTUs; policy off *)
Theorem C05_within_mtu : forall (b : bundle) (m : N),
  frag_allowed b -> one_payload b ->
  Forall (fun o : bytes => Z.of_nat (length o) <= Z.of_N m) (send_request no_sec b (Some m)).
Proof. exact within_mtu_plain. Qed.
Print Assumptions C05_within_mtu.
Example C05_within_mtu_nonvacuous :
  frag_allowed (sample 300) /\ one_payload (sample 300) /\
  map (@length N) (send_request no_sec (sample 300) (Some 150%N)) = [149; 149; 149; 149; 149; 89]%nat /\
  length (tx (sample 300)) = 401%nat.
Proof.
  split; [split; reflexivity|]. split; [reflexivity|]. split.
  - rewrite send_request_lengths. vm_compute. reflexivity.
  - apply Nat2Z.inj. rewrite tx_length. vm_compute. reflexivity.
Qed.

(* ---- lifted to a HISTORY of sends of the same bundle while the route MTU changes: every octet string
        handed to the convergence layer at any send is within the MTU in force at THAT send
        (send_history sec b mtus = map (send_request sec b) mtus: what a container carries over from
        an earlier send -- route, sender -- has no influence; checked against the real agent by re-sending
        the same container in harness/check_C05.py) *)
Theorem C05_history_within_mtu : forall (b : bundle) (ms : list N),
  frag_allowed b -> one_payload b ->
  Forall (fun p : N * list bytes => Forall (fun o : bytes => Z.of_nat (length o) <= Z.of_N (fst p)) (snd p))
         (combine ms (send_history no_sec b (map Some ms))).
Proof. exact history_within_mtu. Qed.
Print Assumptions C05_history_within_mtu.
Example C05_history_within_mtu_nonvacuous :
  map (map (@length N)) (send_history no_sec (sample 300) [None; Some 150%N; Some 105%N; Some 401%N])
  = [[401]; [149; 149; 149; 149; 149; 89]; []; [401]]%nat.
Proof. rewrite send_history_lengths. vm_compute. reflexivity. Qed.

(* the same for the fragment list of the step itself *)
Theorem C05_within_mtu_frags : forall (b : bundle) (m : N) (l : list bundle),
  one_payload b -> fragment_step b (Some m) = Frags l ->
  Forall (fun f => Z.of_nat (length (tx f)) <= Z.of_N m) l.
Proof. exact frags_within_mtu. Qed.
Print Assumptions C05_within_mtu_frags.

(* ---- with a security step: FULL statement (for every step sec that touches neither the
        primary block nor the payload) is FALSE for the unchanged code:
          forall sec b m, (forall f, prim (sec f) = prim f /\ payload_of (sec f) = payload_of f) ->
            frag_allowed (sec b) -> one_payload (sec b) ->
            Forall (fun o => Z.of_nat (length o) <= Z.of_N m) (send_request sec b (Some m))      *)
Theorem C05_within_mtu_sec_refuted :
  exists (sec : bundle -> bundle) (b : bundle) (m : N),
    (forall f, prim (sec f) = prim f /\ payload_of (sec f) = payload_of f) /\
    frag_allowed (sec b) /\ one_payload (sec b) /\
    ~ Forall (fun o : bytes => Z.of_nat (length o) <= Z.of_N m) (send_request sec b (Some m)).
Proof. exact sec_refuted. Qed.
Print Assumptions C05_within_mtu_sec_refuted.
Example C05_within_mtu_sec_refuted_witness :
  map (@length N) (send_request (add_bib 71) (sample 600) (Some 250%N)) = [327; 327; 327; 327; 210]%nat.
Proof. exact sec_witness_lengths. Qed.

(* what remains true: a security step that leaves fragments alone (missing: nothing in the code
   makes the BPSec apply steps skip bundles that are already fragments) *)
Theorem C05_within_mtu_sec_partial : forall (sec : bundle -> bundle),
  (forall f, flag_set (flags (prim f)) flag_is_fragment = true -> sec f = f) ->
  forall (b : bundle) (m : N),
  frag_allowed (sec b) -> one_payload (sec b) ->
  Forall (fun o : bytes => Z.of_nat (length o) <= Z.of_N m) (send_request sec b (Some m)).
Proof. exact within_mtu_sec. Qed.
Print Assumptions C05_within_mtu_sec_partial.

(* ---- the fragments' payload ranges tile the original payload exactly: contiguous from 0,
        non-overlapping, complete; every fragment carries the total payload length *)
Theorem C05_tiling : forall (b : bundle) (m : N) (l : list bundle) (pd : bytes),
  one_payload b -> fragment_step b (Some m) = Frags l -> payload_of b = Some pd ->
  concat (map frag_data l) = pd /\ offsets_from 0 l /\ Forall (fun f => frag_total f = Some (olen pd)) l.
Proof. exact frags_tiling. Qed.
Print Assumptions C05_tiling.
Example C05_tiling_nonvacuous :
  one_payload (sample 300) /\
  (exists l, fragment_step (sample 300) (Some 150%N) = Frags l /\
             map frag_off l = [0; 45; 108; 171; 234; 297]%N /\
             map (fun f => length (frag_data f)) l = [45; 63; 63; 63; 63; 3]%nat).
Proof. split; [reflexivity|]. apply frags_witness. vm_compute. split; reflexivity. Qed.

(* ---- progress: when the step produces fragments every one carries at least one payload octet,
        so there are at most |payload| of them; and the loop never runs out of fuel
        (S |payload| rounds): the model's Stuck is unreachable, i.e. _create terminates *)
Theorem C05_progress : forall (b : bundle) (m : N) (l : list bundle) (pd : bytes),
  one_payload b -> fragment_step b (Some m) = Frags l -> payload_of b = Some pd ->
  Forall (fun f => (1 <= length (frag_data f))%nat) l /\ (length l <= length pd)%nat.
Proof. exact frags_progress. Qed.
Print Assumptions C05_progress.

Theorem C05_terminates : forall (b : bundle) (mtu : option N), fragment_step b mtu <> Stuck.
Proof. exact fragment_step_not_stuck. Qed.
Print Assumptions C05_terminates.

(* ---- each fragment carries the original identity (and every other primary field) with the
        fragment flag or-ed in; the fragment at offset 0 carries all blocks of the original, the
        others exactly the ones marked replicate-in-every-fragment plus the payload block
        (strip: type, number, flags, CRC type and, except for the payload block, the data) *)
Theorem C05_identity_blocks : forall (b : bundle) (m : N) (l : list bundle),
  one_payload b -> fragment_step b (Some m) = Frags l ->
  Forall (fun f =>
            version (prim f) = version (prim b) /\ crc_type (prim f) = crc_type (prim b) /\
            dest (prim f) = dest (prim b) /\ src (prim f) = src (prim b) /\ report_to (prim f) = report_to (prim b) /\
            create_time (prim f) = create_time (prim b) /\ create_seq (prim f) = create_seq (prim b) /\
            lifetime (prim f) = lifetime (prim b) /\
            flags (prim f) = N.lor (flags (prim b)) flag_is_fragment /\
            flag_set (flags (prim f)) flag_is_fragment = true /\
            map strip (blocks f) =
            map strip (if (frag_off f =? 0)%N then blocks b
                       else filter (fun k => replicated k || is_pay k) (blocks b))) l.
Proof. exact frags_identity_blocks. Qed.
Print Assumptions C05_identity_blocks.
Example C05_identity_blocks_nonvacuous :
  exists l, fragment_step (sample 300) (Some 150%N) = Frags l /\
            map (fun f => map bnum (blocks f)) l = [[2; 3; 1]; [2; 1]; [2; 1]; [2; 1]; [2; 1]; [2; 1]]%N.
Proof. apply frags_witness. vm_compute. reflexivity. Qed.

(* the first fragment of the list is the one at offset 0, all later ones start further on *)
Theorem C05_first_fragment : forall (b : bundle) (m : N) (f : bundle) (l : list bundle) (pd : bytes),
  one_payload b -> fragment_step b (Some m) = Frags (f :: l) -> payload_of b = Some pd ->
  frag_off f = 0%N /\ Forall (fun g => (0 < frag_off g)%N) l.
Proof. exact frags_first_offset. Qed.
Print Assumptions C05_first_fragment.

(* ---- a bundle marked do-not-fragment, an existing fragment, a bundle that fits, or a route
        without MTU: exactly the bundle itself is sent (for any security step) *)
Theorem C05_unchanged : forall (sec : bundle -> bundle) (b : bundle) (mtu : option N),
  mtu = None \/ flag_set (flags (prim (sec b))) flag_no_fragment = true
  \/ flag_set (flags (prim (sec b))) flag_is_fragment = true
  \/ (exists m, mtu = Some m /\ tx_size (sec b) <= Z.of_N m) ->
  send_request sec b mtu = [tx (sec b)].
Proof. exact send_unchanged. Qed.
Print Assumptions C05_unchanged.
Example C05_unchanged_nonvacuous :
  send_request no_sec (sample 300) (Some 401%N) = [tx (sample 300)] /\
  map (@length N) (send_request no_sec (sample 300) (Some 400%N)) <> [401%nat].
Proof.
  split.
  - apply C05_unchanged. right. right. right. exists 401%N. split; [reflexivity|]. vm_compute. discriminate.
  - rewrite send_request_lengths. vm_compute. discriminate.
Qed.

(* ---- a bundle that has to be split goes out as the complete fragment list or not at all:
        never the original, never a part of the fragments *)
Theorem C05_all_or_nothing : forall (sec : bundle -> bundle) (b : bundle) (m : N),
  (forall f, flag_set (flags (prim f)) flag_is_fragment = true -> sec f = f) ->
  frag_allowed (sec b) -> one_payload (sec b) -> Z.of_N m < tx_size (sec b) ->
  send_request sec b (Some m) = [] \/
  exists l, fragment_step (sec b) (Some m) = Frags l /\ send_request sec b (Some m) = map tx l.
Proof. exact send_all_or_nothing. Qed.
Print Assumptions C05_all_or_nothing.

(* ---- when fragmentation is impossible -- not even one payload octet fits next to the blocks of
        the first fragment under the budget rule -- nothing is transmitted (for any security step) *)
Theorem C05_infeasible_sends_nothing : forall (sec : bundle -> bundle) (b : bundle) (m : N) (pd : bytes),
  frag_allowed (sec b) -> payload_of (sec b) = Some pd -> Z.of_N m < tx_size (sec b) ->
  Z.of_N m < tx_size (template (sec b) 0 (olen pd)) + pyld_size_enc pd ->
  send_request sec b (Some m) = [].
Proof. exact send_infeasible. Qed.
Print Assumptions C05_infeasible_sends_nothing.
Example C05_infeasible_sends_nothing_nonvacuous :
  frag_allowed (sample 300) /\ payload_of (sample 300) = Some (gdata 7 300) /\
  tx_size (template (sample 300) 0 300) + pyld_size_enc (gdata 7 300) = 106 /\
  send_request no_sec (sample 300) (Some 105%N) = [] /\
  map (@length N) (send_request no_sec (sample 300) (Some 110%N)) <> [].
Proof.
  split; [split; reflexivity|]. split; [reflexivity|]. split; [vm_compute; reflexivity|]. split.
  - rewrite send_request_tx. vm_compute. reflexivity.
  - rewrite send_request_lengths. vm_compute. discriminate.
Qed.
