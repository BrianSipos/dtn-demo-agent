(* C07 at the level of the session model (Model/TcpclSess.v): the framing
   development of Props/C07.v tied to the real session handler, and the
   reliable-FIFO-channel lemma (layer L2 of DESIGN.md) that the C01/C04 proofs
   use.

   Vocabulary (Proofs/TcpclChannelProofs.v):
     received s0 ops   the concatenation of the [data] of those [ORx data]
                       operations of [ops] that take effect along the run from
                       [s0] (endpoint not closed and still listening, [rx_alive],
                       at that moment);
     enc fs            concat (map encode_frame fs);
     handled, rx_buf, sent, wire, conn_tx, msg_tx, closed, rx_alive, in_conn
                       fields / ghosts of the endpoint state.

   FULL-STRENGTH session-level statement of "two reads are one":

     forall s d1 d2, closed s = false -> rx_alive s = true -> d1 <> [] -> d2 <> [] ->
       snd (recv_raw d1 s) = None ->
       step (step s (ORx d1)) (ORx d2) = step s (ORx (d1 ++ d2))

   is FALSE for the session handler (C07_session_two_reads_refuted): when the
   endpoint is terminating, [check_sess_term] closes the connection as soon as
   the session is idle, and "idle" includes "receive buffer empty" -- so
   whether the connection closes after the peer's SESS_TERM depends on whether
   the octets of the following message arrived in the same read (the witness:
   SESS_TERM reply [5;1;0] then KEEPALIVE [4]: two reads act on 3 frames and
   close; one read acts on 4 frames and stays open).  What holds for every
   reachable state, every interleaving and every chunking:
   C07_session_stream_only / C07_session_two_reads_partial (frames acted on and
   octets kept are a function of the octets read, as long as the endpoint is
   open and listening), on top of the unconditional consumption invariant. *)
From Coq Require Import List NArith Bool.
Import ListNotations.
From DTN Require Import Lib.Bytes Model.TcpclMsg Model.TcpclSess Proofs.TcpclMsgProofs Proofs.TcpclChannelProofs
  Proofs.TcpclChannelSent.
Local Open Scope N_scope.

(* ---- consumption: every octet read is part of a frame that was acted on
        (the frames acted on re-encode to exactly the octets consumed) or is
        still in the receive buffer; for every operation list *)
Theorem C07_session_consumption :
  forall (c : cfg) (ops : list op),
    wf_bytes (received (init c) ops) ->
    received (init c) ops
    = concat (map encode_frame (handled (run c ops))) ++ rx_buf (run c ops).
Proof. exact consumption. Qed.
Print Assumptions C07_session_consumption.

(* ---- what was acted on: well-formed frames; nothing, or one contact header
        followed by messages only; an endpoint still in the contact phase has
        acted on nothing unless it closed or went deaf (escaped exception) on
        its first frame; the kept octets are octets *)
Theorem C07_session_handled_shape :
  forall (c : cfg) (ops : list op),
    wf_bytes (received (init c) ops) ->
    let s := run c ops in
    Forall wf_frame (handled s)
    /\ (handled s = [] \/ exists h ms, handled s = FContact h :: map FMsg ms)
    /\ (in_conn s = true -> handled s <> [])
    /\ (in_conn s = false -> handled s = [] \/ closed s = true \/ rx_alive s = false)
    /\ wf_bytes (rx_buf s).
Proof. exact handled_shape. Qed.
Print Assumptions C07_session_handled_shape.

(* ---- sender-side accounting: every octet the socket accepted or that is
        still in one of the two transmit buffers comes from the encoding of a
        sent frame, in order; for every operation list *)
Theorem C07_sent_accounting :
  forall (c : cfg) (ops : list op),
    wire (run c ops) ++ conn_tx (run c ops) ++ msg_tx (run c ops)
    = concat (map encode_frame (sent (run c ops))).
Proof. exact sent_accounting. Qed.
Print Assumptions C07_sent_accounting.

(* ---- the channel lemma: for ALL operation lists of both endpoints (every
        schedule, chunking, back-pressure pattern), if what B has read is a
        prefix of what A's socket accepted, then the frames B acted on are a
        prefix of the frames A sent.
        Two premises about the sender A are left explicit here; both are
        theorems of the transmit side (Proofs/TcpclSentProofs15.v [sent_wf],
        Proofs/TcpclSentProofs7.v [contact_first_map]) and C04_channel_closed
        is the statement with them discharged:
          sent well-formed  Forall wf_frame (sent sA)   (holds under bounds on the
                            configuration and the operations: node id < 2^16 octets,
                            keepalive < 2^16, seg_mru < 2^64, OSend data < 2^64 octets,
                            fewer than 2^64 sends, OTerm reason < 256, ...)
          contact first     sent sA is empty or one contact header followed by messages *)
Theorem C07_channel :
  forall (cA : cfg) (opsA : list op) (cB : cfg) (opsB : list op),
    (exists rest, wire (run cA opsA) = received (init cB) opsB ++ rest) ->
    Forall wf_frame (sent (run cA opsA)) ->
    (sent (run cA opsA) = [] \/ exists h ms, sent (run cA opsA) = FContact h :: map FMsg ms) ->
    exists more, sent (run cA opsA) = handled (run cB opsB) ++ more.
Proof. exact channel_acc. Qed.
Print Assumptions C07_channel.
Example C07_channel_nonvacuous :
  (* A (active) starts and its socket takes the contact header; B (passive)
     reads it in two pieces *)
  let cA := mkCfg false [97] 30 60 1000 1000 None in
  let cB := mkCfg true [98] 30 60 1000 1000 None in
  let opsA := [OStart; OTxPump true 100] in
  let opsB := [OStart; ORx [100;116;110]; ORx [33;4;0]] in
  wire (run cA opsA) = received (init cB) opsB ++ []
  /\ wire (run cA opsA) ++ conn_tx (run cA opsA) ++ msg_tx (run cA opsA)
     = concat (map encode_frame (sent (run cA opsA)))
  /\ sent (run cA opsA) = FContact (mkContact MAGIC 4 0) :: map FMsg []
  /\ handled (run cB opsB) = [FContact (mkContact MAGIC 4 0)].
Proof. cbv zeta. repeat split; vm_compute; reflexivity. Qed.

(* ---- C07 for the actual session handler: any two operation lists (any
        interleaving with sends, pumps, timers, any chunking of the reads) that
        have read the same octets and left the endpoint open and listening
        have acted on the same frames and keep the same octets *)
Theorem C07_session_stream_only :
  forall (c : cfg) (ops1 ops2 : list op),
    received (init c) ops1 = received (init c) ops2 ->
    wf_bytes (received (init c) ops1) ->
    closed (run c ops1) = false -> rx_alive (run c ops1) = true ->
    closed (run c ops2) = false -> rx_alive (run c ops2) = true ->
    handled (run c ops1) = handled (run c ops2) /\ rx_buf (run c ops1) = rx_buf (run c ops2).
Proof. exact session_stream_only. Qed.
Print Assumptions C07_session_stream_only.

(* ---- two reads are one (frames acted on, octets kept) from every reachable state *)
Theorem C07_session_two_reads_partial :
  forall (c : cfg) (ops : list op) (d1 d2 : bytes),
    let s := run c ops in
    let a := step (step s (ORx d1)) (ORx d2) in
    let b := step s (ORx (d1 ++ d2)) in
    wf_bytes (received (init c) ops) -> wf_bytes d1 -> wf_bytes d2 ->
    closed a = false -> rx_alive a = true -> closed b = false -> rx_alive b = true ->
    handled a = handled b /\ rx_buf a = rx_buf b.
Proof. exact session_two_reads. Qed.
Print Assumptions C07_session_two_reads_partial.
Example C07_session_two_reads_nonvacuous :
  let c := mkCfg true [98] 30 60 1000 1000 None in
  let s := run c [OStart] in
  let a := step (step s (ORx [100;116;110;33;4;0;4])) (ORx [4;5]) in
  let b := step s (ORx [100;116;110;33;4;0;4;4;5]) in
  closed a = false /\ rx_alive a = true /\ closed b = false /\ rx_alive b = true
  /\ handled a = [FContact (mkContact MAGIC 4 0); FMsg MKeepalive; FMsg MKeepalive] /\ rx_buf b = [5].
Proof. cbv zeta. repeat split; vm_compute; reflexivity. Qed.

(* ---- the full-state version is false: whether a terminating endpoint closes
        depends on where the read boundary falls *)
Theorem C07_session_two_reads_refuted :
  exists (c : cfg) (ops : list op) (d1 d2 : bytes),
    let s := run c ops in
    closed s = false /\ rx_alive s = true /\ d1 <> [] /\ d2 <> [] /\ wf_bytes (d1 ++ d2)
    /\ snd (recv_raw d1 s) = None
    /\ handled (step (step s (ORx d1)) (ORx d2)) <> handled (step s (ORx (d1 ++ d2)))
    /\ closed (step (step s (ORx d1)) (ORx d2)) = true
    /\ closed (step s (ORx (d1 ++ d2))) = false.
Proof. exact session_two_reads_refuted. Qed.
Print Assumptions C07_session_two_reads_refuted.

(* ---- unique decodability of accepted frame sequences (the list-level core
        of the channel lemma) *)
Theorem C07_frames_prefix :
  forall (l1 l2 : list frame) (ph : bool) (x : bytes),
    wfseq ph l1 -> wfseq ph l2 ->
    concat (map encode_frame l1) ++ x = concat (map encode_frame l2) ->
    exists m, l2 = l1 ++ m.
Proof. exact frames_prefix. Qed.
Print Assumptions C07_frames_prefix.
