(* C07 -- TCPCL message framing is independent of how TCP chunks the stream.

   "The sequence of contact header and messages a receiver acts on is
    determined only by the octet stream, never by where the network splits it:
    any prefix of a message (or of the contact header) is left untouched until
    its final octet arrives, a complete message is acted on as soon as its
    final octet arrives, and trailing octets are kept for the next message.
    Every message the implementation encodes is decoded to the same fields by
    an independent RFC 9174 decoder, and vice versa."

   Model (Model/TcpclMsg.v, hand-written, tied to /repo by the correspondence
   run of harness/check_C07.py on every run):
     encode_msg / encode_contact / encode_frame  what scapy's bytes(pkt) emits;
     parse_msg / parse_contact / parse_frame ph  the probe of Messenger.recv_raw
        (ph = _in_conn): Some (frame, remaining octets) iff a complete frame is
        at the front of the buffer;
     rx_loop / rx_recv St phase alive handle           the while-loop of recv_raw for
        ANY handler [handle] (recv_message) over ANY state [St] with phase
        projection [phase]; one rx_recv = one recv_raw(chunk);
     rx_log_recv                                 the same with the logging
        handler (state = ((_in_conn, open), frames acted on so far); as in
        recv_message a contact header with magic "dtn!" and version 4
        (contact_ok) sets _in_conn, any other one closes the connection).
   The field layout in encode_msg/parse_msg is RFC 9174 sections 4.1, 4.7,
   5.1.1, 5.1.2, 5.2.2-5.2.5, 6.1.  The harness carries a second, independent
   decoder/encoder written with plain [struct] from the same RFC sections and
   checks on every run that  scapy (real code) = model = struct codec  on
   generated messages, so C07_codec_roundtrip (model encoder vs model parser)
   is tied both to the implementation and to the independent decoder.

   Extension items.  The framing of XFER_SEGMENT / SESS_INIT only depends on
   the ext_size octets of the extension region (carried as opaque octets in
   the message), and at that level the codec round trip holds in full
   (C07_codec_roundtrip).  One level down, the FULL-STRENGTH statement

       forall items, Forall (wf_ext known) items ->
         scapy_view known (encode_exts items) = map item_view items

   ("the implementation's dissector reports the items an RFC 9174 encoder
   wrote") is FALSE for the code as it stands: C07_codec_exts_refuted.  Any
   list of two or more items is reported as one Raw blob (TlvHead lacks
   extract_padding, so the length check of the first item sees the following
   items as part of its payload); C07_codec_exts_defect_exact.  Proved instead:
   C07_codec_exts_partial (lists of at most one item, which is what the
   implementation sends by default), C07_codec_exts_spec (the RFC reading is an
   exact inverse of the item encoder).  The receive path never looks at the
   items (recv_xfer_data ignores ext_items), so no other C07 clause is touched.
   Known finding "C07 / ext-item list with >= 2 items dissected as one Raw blob". *)
From Coq Require Import List NArith Bool.
Import ListNotations.
From DTN Require Import Lib.Bytes Model.TcpclMsg Proofs.TcpclMsgProofs.
Local Open Scope N_scope.

(* ---- split invariance: for EVERY octet stream (valid or not), EVERY handler
        and state, the state reached and the octets kept after a sequence of
        reads depend only on the concatenation of the reads *)
Theorem C07_split_invariance :
  forall (St : Type) (phase alive : St -> bool) (handle : St -> frame -> St)
         (chunks : list bytes) (c : bytes) (st : St * bytes),
    fold_left (rx_recv St phase alive handle) chunks (rx_recv St phase alive handle st c)
    = rx_recv St phase alive handle st (c ++ concat chunks).
Proof. exact rx_split_invariance. Qed.
Print Assumptions C07_split_invariance.

Theorem C07_two_reads_are_one :
  forall (St : Type) (phase alive : St -> bool) (handle : St -> frame -> St)
         (st : St * bytes) (c1 c2 : bytes),
    rx_recv St phase alive handle (rx_recv St phase alive handle st c1) c2 = rx_recv St phase alive handle st (c1 ++ c2).
Proof. exact rx_recv_recv. Qed.
Print Assumptions C07_two_reads_are_one.

(* ---- two ways of cutting the same stream: the handler ends in the same state
        (so it was given the same frames in the same order), same octets kept *)
Theorem C07_stream_only :
  forall (St : Type) (phase alive : St -> bool) (handle : St -> frame -> St)
         (chunks1 chunks2 : list bytes) (s : St),
    concat chunks1 = concat chunks2 ->
    fold_left (rx_recv St phase alive handle) chunks1 (s, []) = fold_left (rx_recv St phase alive handle) chunks2 (s, []).
Proof. exact rx_stream_only. Qed.
Print Assumptions C07_stream_only.

Theorem C07_frames_acted_on_stream_only :
  forall (chunks1 chunks2 : list bytes),
    concat chunks1 = concat chunks2 ->
    fold_left rx_log_recv chunks1 rx_init = fold_left rx_log_recv chunks2 rx_init.
Proof. exact (fun c1 c2 => rx_stream_only log_state log_phase log_alive log_handle c1 c2 ((false, true), [])). Qed.
Print Assumptions C07_frames_acted_on_stream_only.
Example C07_frames_acted_on_stream_only_nonvacuous :
  (* contact header, KEEPALIVE, SESS_TERM cut 4|3|1|2 and 1|9: same result, both frames logged *)
  fold_left rx_log_recv [[100;116;110;33]; [4;0;4]; [5]; [1;3]] rx_init
  = fold_left rx_log_recv [[100]; [116;110;33;4;0;4;5;1;3]] rx_init
  /\ fold_left rx_log_recv [[100]; [116;110;33;4;0;4;5;1;3]] rx_init
     = (((true, true), [FContact (mkContact MAGIC 4 0); FMsg MKeepalive; FMsg (MSessTerm 1 3)]), []).
Proof. split; vm_compute; reflexivity. Qed.

(* ---- frames already acted on are never revised by later reads *)
Theorem C07_log_only_grows :
  forall (st : log_state * bytes) (c : bytes),
    exists more, snd (fst (rx_log_recv st c)) = snd (fst st) ++ more.
Proof. exact rx_log_mono. Qed.
Print Assumptions C07_log_only_grows.

(* ---- once the handler has closed the connection nothing more is acted on:
        later octets are only appended to the buffer *)
Theorem C07_closed_inert :
  forall (St : Type) (phase alive : St -> bool) (handle : St -> frame -> St)
         (s : St) (buf c : bytes),
    alive s = false -> rx_recv St phase alive handle (s, buf) c = (s, buf ++ c).
Proof. exact rx_closed_inert. Qed.
Print Assumptions C07_closed_inert.
Example C07_closed_inert_nonvacuous :
  (* bad magic: the header is handled (and closes), the KEEPALIVE behind it is not *)
  rx_log_recv rx_init [100;116;110;63;4;0;4] = (((false, false), [FContact (mkContact [100;116;110;63] 4 0)]), [4]).
Proof. vm_compute. reflexivity. Qed.

(* ---- a strict prefix of a frame is left untouched (probe level) ... *)
Theorem C07_prefix_untouched :
  forall (ph : bool) (f : frame) (p q : bytes),
    accepts ph f -> encode_frame f = p ++ q -> q <> [] -> parse_frame ph p = None.
Proof. exact frame_prefix. Qed.
Print Assumptions C07_prefix_untouched.

(* ---- ... and by the loop, for any handler: state and buffer unchanged *)
Theorem C07_prefix_untouched_loop :
  forall (St : Type) (phase alive : St -> bool) (handle : St -> frame -> St)
         (s : St) (f : frame) (p q : bytes),
    accepts (phase s) f -> encode_frame f = p ++ q -> q <> [] ->
    rx_recv St phase alive handle (s, []) p = (s, p).
Proof. exact rx_prefix_untouched. Qed.
Print Assumptions C07_prefix_untouched_loop.
Example C07_prefix_untouched_nonvacuous :
  (* 22 of the 23 octets of a START|END segment with no items and one data octet *)
  let f := FMsg (MXferSeg 3 7 [] [65]) in
  accepts true f /\ encode_frame f = firstn 22 (encode_frame f) ++ [65]
  /\ parse_frame true (firstn 22 (encode_frame f)) = None
  /\ parse_frame false [100;116;110;33;4] = None.
Proof.
  cbv zeta. split; [split; [apply wf_msgb_wf; reflexivity|reflexivity]|].
  split; [|split]; vm_compute; reflexivity.
Qed.

(* ---- a complete frame is acted on in the read that delivers its final
        octet: p held in the buffer, q arrives, the frame is handled, nothing is kept *)
Theorem C07_complete_acted_on :
  forall (St : Type) (phase alive : St -> bool) (handle : St -> frame -> St)
         (s : St) (f : frame) (p q : bytes),
    alive s = true -> accepts (phase s) f -> encode_frame f = p ++ q ->
    rx_recv St phase alive handle (s, p) q = (handle s f, []).
Proof. exact rx_complete_acted_on. Qed.
Print Assumptions C07_complete_acted_on.
Example C07_complete_acted_on_nonvacuous :
  (* a lone KEEPALIVE octet is complete; the last octet of a contact header completes it *)
  rx_log_recv (((true, true), []), []) [4] = (((true, true), [FMsg MKeepalive]), [])
  /\ rx_log_recv (((false, true), []), [100;116;110;33;4]) [1] = (((true, true), [FContact (mkContact MAGIC 4 1)]), []).
Proof. split; vm_compute; reflexivity. Qed.

(* ---- trailing octets are kept for the next message (probe level) *)
Theorem C07_tail_kept :
  forall (ph : bool) (f : frame) (rest : bytes),
    accepts ph f -> parse_frame ph (encode_frame f ++ rest) = Some (f, rest).
Proof. exact frame_parse_encode. Qed.
Print Assumptions C07_tail_kept.

(* ---- what the probe consumes is exactly the re-encoding of what it returns
        (recv_raw's "read back the encoded data"), on any buffer of octets *)
Theorem C07_consumed_is_encoding :
  forall (ph : bool) (b : bytes) (f : frame) (r : bytes),
    wf_bytes b -> parse_frame ph b = Some (f, r) ->
    b = encode_frame f ++ r /\ accepts ph f /\ wf_bytes r.
Proof. exact frame_parse_sound. Qed.
Print Assumptions C07_consumed_is_encoding.

(* ---- a decision once taken is not changed by octets that arrive later *)
Theorem C07_probe_stable :
  forall (ph : bool) (b e : bytes) (f : frame) (r : bytes),
    parse_frame ph b = Some (f, r) -> parse_frame ph (b ++ e) = Some (f, r ++ e).
Proof. exact frame_parse_app. Qed.
Print Assumptions C07_probe_stable.

(* ---- a well-formed stream: every frame is handled, in order, nothing is left *)
Theorem C07_stream :
  forall (St : Type) (phase alive : St -> bool) (handle : St -> frame -> St)
         (fs : list frame) (s : St),
    rx_consistent St phase alive handle s fs ->
    rx_recv St phase alive handle (s, []) (concat (map encode_frame fs)) = (fold_left handle fs s, []).
Proof. exact rx_stream. Qed.
Print Assumptions C07_stream.

Theorem C07_stream_log :
  forall (c : contact) (ms : list msg),
    wf_contact c -> contact_ok c = true -> Forall wf_msg ms ->
    rx_log_recv rx_init (concat (map encode_frame (FContact c :: map FMsg ms)))
    = (((true, true), FContact c :: map FMsg ms), []).
Proof. exact rx_log_stream. Qed.
Print Assumptions C07_stream_log.

(* ---- any cut of any prefix of a well-formed stream: exactly the frames whose
        final octet has arrived have been acted on, the octets [q] of the next,
        incomplete frame are kept *)
Theorem C07_any_cut :
  forall (c : contact) (ms : list msg) (fs1 : list frame) (f : frame) (fs2 : list frame)
         (q q' : bytes) (chunks : list bytes),
    wf_contact c -> contact_ok c = true -> Forall wf_msg ms ->
    FContact c :: map FMsg ms = fs1 ++ f :: fs2 ->
    encode_frame f = q ++ q' -> q' <> [] ->
    concat chunks = concat (map encode_frame fs1) ++ q ->
    fold_left rx_log_recv chunks rx_init
    = (((match fs1 with [] => false | _ => true end, true), fs1), q).
Proof. exact rx_log_any_cut. Qed.
Print Assumptions C07_any_cut.

Theorem C07_any_cut_all :
  forall (c : contact) (ms : list msg) (chunks : list bytes),
    wf_contact c -> contact_ok c = true -> Forall wf_msg ms ->
    concat chunks = concat (map encode_frame (FContact c :: map FMsg ms)) ->
    fold_left rx_log_recv chunks rx_init = (((true, true), FContact c :: map FMsg ms), []).
Proof. exact rx_log_any_cut_all. Qed.
Print Assumptions C07_any_cut_all.

(* non-vacuity: a contact header and one message of every type (START segment
   carrying the Transfer Length extension item, a zero-length END segment, a
   SESS_INIT with a node id and the private session extension) is a well-formed
   stream, and the model handles exactly these ten frames (example_msgs is
   spelled out in Proofs/TcpclMsgProofs.v) *)
Example C07_stream_nonvacuous :
  wf_contact (mkContact MAGIC 4 0) /\ contact_ok (mkContact MAGIC 4 0) = true /\ Forall wf_msg example_msgs
  /\ length (concat (map encode_frame (FContact (mkContact MAGIC 4 0) :: map FMsg example_msgs))) = 167%nat
  /\ snd (fst (rx_log_recv rx_init (concat (map encode_frame (FContact (mkContact MAGIC 4 0) :: map FMsg example_msgs)))))
     = FContact (mkContact MAGIC 4 0) :: map FMsg example_msgs.
Proof.
  split; [|split; [|split; [|split]]].
  - repeat split; try reflexivity. repeat constructor.
  - reflexivity.
  - apply wf_msgs_forallb. vm_compute. reflexivity.
  - vm_compute. reflexivity.
  - vm_compute. reflexivity.
Qed.

(* ---- codec round trip (message level, extension region as octets): the
        parser inverts the encoder, with any trailing octets kept *)
Theorem C07_codec_roundtrip :
  forall (m : msg) (rest : bytes),
    wf_msg m -> parse_msg (encode_msg m ++ rest) = Some (m, rest).
Proof. exact parse_encode. Qed.
Print Assumptions C07_codec_roundtrip.

(* ---- and vice versa: whatever the parser accepts is the encoding of what it
        returns (so decode-then-encode is the identity on the consumed octets) *)
Theorem C07_codec_roundtrip_converse :
  forall (b : bytes) (m : msg) (r : bytes),
    wf_bytes b -> parse_msg b = Some (m, r) -> b = encode_msg m ++ r /\ wf_msg m /\ wf_bytes r.
Proof. exact parse_sound. Qed.
Print Assumptions C07_codec_roundtrip_converse.

Theorem C07_codec_contact_roundtrip :
  forall (c : contact) (rest : bytes),
    wf_contact c -> parse_contact (encode_contact c ++ rest) = Some (c, rest).
Proof. exact contact_parse_encode. Qed.
Print Assumptions C07_codec_contact_roundtrip.

(* ---- unique decodability: no encoding is a prefix of another *)
Theorem C07_codec_prefix_free :
  forall (a b : msg) (x y : bytes),
    wf_msg a -> wf_msg b -> encode_msg a ++ x = encode_msg b ++ y -> a = b /\ x = y.
Proof. exact encode_prefix_free. Qed.
Print Assumptions C07_codec_prefix_free.

Example C07_codec_nonvacuous :
  forallb wf_msgb example_msgs = true
  /\ map (fun m => parse_msg (encode_msg m ++ [4])) example_msgs
     = map (fun m => Some (m, [4])) example_msgs
  /\ encode_msg (MXferSeg 2 1 (encode_exts [mkExt 1 1 [0;0;0;0;0;0;0;3]]) [1;2;3])
     = [1; 2; 0;0;0;0;0;0;0;1; 0;0;0;13; 1; 0;1; 0;8; 0;0;0;0;0;0;0;3; 0;0;0;0;0;0;0;3; 1;2;3].
Proof. split; [|split]; vm_compute; reflexivity. Qed.

(* ---- extension items: the RFC 9174 reading inverts the item encoder *)
Theorem C07_codec_exts_spec :
  forall (known : N -> option nat) (items : list extitem),
    Forall (wf_ext known) items -> spec_exts known (encode_exts items) = Some items.
Proof. exact spec_exts_encode. Qed.
Print Assumptions C07_codec_exts_spec.

Theorem C07_codec_exts_spec_converse :
  forall (known : N -> option nat) (region : bytes) (items : list extitem),
    wf_bytes region -> spec_exts known region = Some items ->
    region = encode_exts items /\ Forall (wf_ext known) items.
Proof. exact spec_exts_sound. Qed.
Print Assumptions C07_codec_exts_spec_converse.

(* ---- the full-strength item statement is false for the implementation's
        dissector: the two items the implementation itself sends with
        enable_test=private_extensions (private dummy 0xFF + Transfer Length)
        are reported as one Raw blob *)
Theorem C07_codec_exts_refuted :
  exists items : list extitem,
    Forall (wf_ext xfer_ext_len) items
    /\ scapy_view xfer_ext_len (encode_exts items) <> map item_view items.
Proof. exact scapy_exts_refuted. Qed.
Print Assumptions C07_codec_exts_refuted.

(* ---- exactly that: every list of two or more items, nothing else *)
Theorem C07_codec_exts_defect_exact :
  forall (known : N -> option nat) (items : list extitem),
    Forall (wf_ext known) items -> (2 <= length items)%nat ->
    scapy_view known (encode_exts items) = [XRaw (encode_exts items)].
Proof. exact scapy_view_ge2. Qed.
Print Assumptions C07_codec_exts_defect_exact.

Theorem C07_codec_exts_partial :
  forall (known : N -> option nat) (items : list extitem),
    Forall (wf_ext known) items -> (length items <= 1)%nat ->
    scapy_view known (encode_exts items) = map item_view items.
Proof. exact scapy_view_le1. Qed.
Print Assumptions C07_codec_exts_partial.
Example C07_codec_exts_partial_nonvacuous :
  wf_ext xfer_ext_len (mkExt 1 1 [0;0;0;0;0;0;0;3])
  /\ scapy_view xfer_ext_len (encode_exts [mkExt 1 1 [0;0;0;0;0;0;0;3]]) = [XItem 1 1 8 [0;0;0;0;0;0;0;3]]
  /\ scapy_view xfer_ext_len (encode_exts [mkExt 0 255 [0;0;0;0;0;0;0;0;0;0]; mkExt 0 1 [0;0;0;0;0;0;0;2]])
     = [XRaw (encode_exts [mkExt 0 255 [0;0;0;0;0;0;0;0;0;0]; mkExt 0 1 [0;0;0;0;0;0;0;2]])].
Proof. split; [apply wf_extb_wf; reflexivity|]. split; vm_compute; reflexivity. Qed.
