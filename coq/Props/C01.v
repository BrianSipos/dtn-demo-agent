(* C01 -- TCPCL delivers every queued bundle exactly once, intact and in order.

   "Every bundle queued for sending on either side of an established session,
    whatever its length (including zero, one octet, many segments) and whatever
    segment sizes were negotiated, appears in the peer's receive queue exactly
    once, byte-for-byte identical, in the order it was queued.  The sender
    reports success only after the receiver holds the complete bundle, and no
    bundle is ever delivered truncated, duplicated, merged with another
    transfer or reordered."

   Model: Model/TcpclSess.v (one endpoint of /repo/src/tcpcl/session.py as a
   step function over event-loop operations; tied to the code by the
   differential runs of the harness).  Specification-side definitions:
   Model/TcpclXferSpec.v (nothing there reads the endpoint's transfer
   bookkeeping; everything is computed from sent / handled / trace / ops):
     segs_of l            the XFER_SEGMENTs of a frame list (flags,id,ext,data)
     transfers_of sg      grouping of a segment sequence into transfers
                          (id, data, complete)
     complete_of ts       the complete transfers as (id, data)
     queued c ops         the bundles ACCEPTED by send_bundle_data: given while
                          the endpoint was open and not terminating (once
                          _in_term is set the call raises RuntimeError and
                          queues nothing: C01_ex_send_while_terminating)
     bundle_of q id       the id-th queued bundle (ids count from 1)
     deliver_spec h       the receiver specified as a fold over the frames it
                          acted on: after the first SESS_INIT a START segment
                          opens/replaces the current transfer, a continuing
                          segment of the same id appends, END delivers
     rxmap_spec tr dl     the receive store as a function of the histories
   Every theorem below is for ALL configurations, ALL operation lists (all
   schedules, chunkings of the received octets, back-pressure patterns, user
   call positions) and ARBITRARY received octets.

   Decomposition.
     (R) receiver:  C01_recv_finished_spec, C01_rx_state_spec, C01_rx_map_exact,
                    C01_rx_map_delivered, C01_pop_*, C01_delivery_stored,
                    C01_end_acks_spec, C01_no_mixed_delivery (the C17 clause).
     (S) sender:    C01_sender_structure, C01_sender_ids_increase_partial /
                    _refuted (the C04 clause), C01_sender_exact,
                    C01_sender_strict_partial, C01_send_ids,
                    C01_no_refuse_sent, C01_sent_init_first, C01_success_acked,
                    C01_unstarted_reported_on_close, C01_closed_nothing_pending.
     (C) composition: C01_safety / C01_safety_no_refuse / C01_success_after_complete over the channel
         hypothesis "what an endpoint has acted on is a prefix of what its peer
         emitted" (prefix (handled sB) (sent sA), and the reverse direction),
         and C01_safety_end_to_end / C01_success_end_to_end where that
         hypothesis is discharged by the C07 channel lemma from the hypothesis
         on the octets: wire sA = received-by-B ++ rest (reliable FIFO stream),
         plus its two side conditions (frames sent are well-formed; the contact
         header is sent first and once).
     Not proved here: liveness (that every queued bundle IS eventually
     delivered under a fair schedule) -- the statements are safety statements
     for every schedule; and the two side conditions of the channel lemma are
     hypotheses of the end-to-end forms (they are checked on the concrete run
     in C01_ex_end_to_end_hyps).

   Model finding: with a segment size of ZERO (peer
   segment MRU 0, or segment_size_tx_initial 0, or a SESS_INIT whose node id is
   not ASCII escaping merge_session_params after _in_sess was set) and a
   non-empty bundle, _process_queue emits a START segment with no data and
   without END on every pass, for ever (file.read(0) == b'').  Hence the
   clauses "transfer ids strictly increase" and "never two transfers open" are
   stated under the explicit hypothesis [Forall seg_progress sg] (no
   data-less START segment without END was sent); C01_zero_segment_size
   exhibits the run.  Everything else, in particular the safety
   composition, needs no such hypothesis. *)
From Coq Require Import List NArith Bool Sorted.
Import ListNotations.
From DTN Require Import Lib.Bytes Model.TcpclMsg Model.TcpclSess Model.TcpclXferSpec
  Proofs.TcpclMsgProofs Proofs.TcpclChannelProofs
  Proofs.TcpclXferRecv Proofs.TcpclXferAbs Proofs.TcpclXferSend Proofs.TcpclXferProofs Proofs.TcpclXferE2E.
Local Open Scope N_scope.

(* (R) the receiver *)

(* the "receive finished" signals are exactly the specified deliveries, in order *)
Theorem C01_recv_finished_spec :
  forall (c : cfg) (ops : list op),
    recv_finished_events (trace (run c ops))
    = map (fun p => (fst p, N.of_nat (length (snd p)))) (deliver_spec (handled (run c ops))).
Proof. exact recv_finished_spec. Qed.
Print Assumptions C01_recv_finished_spec.

(* session flag and transfer under reception are the specified ones *)
Theorem C01_rx_state_spec :
  forall (c : cfg) (ops : list op),
    in_sess (run c ops) = fst (fst (rx_spec (handled (run c ops)))) /\
    rx_tmp (run c ops) = snd (fst (rx_spec (handled (run c ops)))).
Proof. exact rx_state_spec. Qed.
Print Assumptions C01_rx_state_spec.

(* the receive store holds exactly: deliveries so far, minus successful pops *)
Theorem C01_rx_map_exact :
  forall (c : cfg) (ops : list op),
    rx_map (run c ops) = rxmap_spec (trace (run c ops)) (deliver_spec (handled (run c ops))).
Proof. exact rx_map_exact. Qed.
Print Assumptions C01_rx_map_exact.

Theorem C01_rx_map_delivered :
  forall (c : cfg) (ops : list op) (id : N) (d : bytes),
    dict_get id (rx_map (run c ops)) = Some d -> In (id, d) (deliver_spec (handled (run c ops))).
Proof. exact rx_map_delivered. Qed.
Print Assumptions C01_rx_map_delivered.

(* every pop returned a delivered (id, data) *)
Theorem C01_pop_delivered :
  forall (c : cfg) (ops : list op) (id : N) (d : bytes),
    In (EPop id d) (trace (run c ops)) -> In (id, d) (deliver_spec (handled (run c ops))).
Proof. exact pop_delivered. Qed.
Print Assumptions C01_pop_delivered.

(* a pop removes the bundle: popping the same id again at once raises KeyError *)
Theorem C01_pop_removes :
  forall (c : cfg) (ops : list op) (id : N),
    closed (run c ops) = false -> dict_get id (rx_map (step (run c ops) (OPop id))) = None.
Proof. exact pop_removes. Qed.
Print Assumptions C01_pop_removes.

Theorem C01_pop_twice :
  forall (c : cfg) (ops : list op) (id : N),
    closed (run c ops) = false ->
    trace (step (step (run c ops) (OPop id)) (OPop id))
    = trace (step (run c ops) (OPop id)) ++ [EExc EX_KEY].
Proof. exact pop_twice. Qed.
Print Assumptions C01_pop_twice.

(* at the moment a transfer is delivered the store maps its id to exactly its data *)
Theorem C01_delivery_stored :
  forall (fl xid : N) (ext data : bytes) (s : ep) (acc : bytes),
    in_sess s = true -> rx_accept (rx_tmp s) fl xid = Some acc -> has_end fl = true ->
    dict_get xid (rx_map (fst (recv_frame (FMsg (MXferSeg fl xid ext data)) s))) = Some (acc ++ data).
Proof. exact delivery_stored. Qed.
Print Assumptions C01_delivery_stored.

(* the END-flagged XFER_ACKs an endpoint has sent are exactly its deliveries,
   in order: one final acknowledgement per delivered transfer, with its length *)
Theorem C01_end_acks_spec :
  forall (c : cfg) (ops : list op),
    end_acks (sent (run c ops))
    = map (fun p => (fst p, N.of_nat (length (snd p)))) (deliver_spec (handled (run c ops))).
Proof. exact end_acks_spec. Qed.
Print Assumptions C01_end_acks_spec.

(* C17 clause: whatever frames were acted on, each delivered (xid, d) is the
   concatenation of the data of the segments of ONE transfer id: a START
   segment of xid, then (among frames none of which is a START) the segments
   of xid, up to the first END segment of xid. *)
Theorem C01_no_mixed_delivery :
  forall (h : list frame) (xid : N) (d : bytes),
    In (xid, d) (deliver_spec h) ->
    exists pre fl0 e0 d0 mid post,
      h = pre ++ FMsg (MXferSeg fl0 xid e0 d0) :: mid ++ post /\
      has_start fl0 = true /\
      Forall (fun f => is_start f = false) mid /\
      d = d0 ++ concat (map (contrib xid) mid) /\
      ((has_end fl0 = true /\ mid = []) \/
       (has_end fl0 = false /\
        exists mid' fle ee de, mid = mid' ++ [FMsg (MXferSeg fle xid ee de)] /\ has_end fle = true /\
                               Forall (fun f => is_end_of xid f = false) mid')).
Proof. exact no_mixed_delivery. Qed.
Print Assumptions C01_no_mixed_delivery.

(* (S) the sender *)

(* Unconditional structure of the segments sent:
   - every non-START segment continues the open transfer;
   - a START segment announces the total length of its bundle, the others
     carry no extension;
   - every transfer (id, data, complete) carries the bundle queued under id:
     all of it if complete, a prefix of it otherwise;
   - transfer ids never decrease, and increase strictly after a complete one. *)
Theorem C01_sender_structure :
  forall (c : cfg) (ops : list op),
    let sg := segs_of (sent (run c ops)) in
    let q := queued c ops in
    (forall pre g post, sg = pre ++ g :: post ->
       has_start (xs_flags g) = false -> exists acc, fst (xfold pre) = Some (xs_id g, acc)) /\
    Forall (fun g => exists b, bundle_of q (xs_id g) = Some b /\
                     xs_ext g = if has_start (xs_flags g)
                                then total_length_ext (N.of_nat (length b)) else []) sg /\
    Forall (fun t => exists b, bundle_of q (tr_id t) = Some b /\
                     (tr_complete t = true -> tr_data t = b) /\
                     (tr_complete t = false -> exists r, b = tr_data t ++ r)) (transfers_of sg) /\
    StronglySorted (fun a b => tr_id a <= tr_id b /\ (tr_complete a = true -> tr_id a < tr_id b))
                   (transfers_of sg).
Proof. exact sender_structure. Qed.
Print Assumptions C01_sender_structure.

(* C04 clause: transfer ids are never reused.
   Full-strength statement:
       forall c ops, StronglySorted (fun a b => tr_id a < tr_id b)
                                    (transfers_of (segs_of (sent (run c ops))))
   It is FALSE of the faithful model (zero segment size: the same START
   segment is emitted again and again): C01_sender_ids_increase_refuted.
   Proved: the statement for every run whose START segments make progress
   (_partial); unconditionally, ids never decrease and strictly increase after
   every complete transfer (last clause of C01_sender_structure). *)
Theorem C01_sender_ids_increase_refuted :
  exists (c : cfg) (ops : list op),
    ~ StronglySorted (fun a b => tr_id a < tr_id b) (transfers_of (segs_of (sent (run c ops)))).
Proof. exact sender_ids_increase_refuted. Qed.
Print Assumptions C01_sender_ids_increase_refuted.

Theorem C01_sender_ids_increase_partial :
  forall (c : cfg) (ops : list op),
    let sg := segs_of (sent (run c ops)) in
    Forall (fun g => has_start (xs_flags g) = true -> has_end (xs_flags g) = false -> xs_data g <> []) sg ->
    StronglySorted (fun a b => tr_id a < tr_id b) (transfers_of sg).
Proof. exact sender_ids_increase. Qed.
Print Assumptions C01_sender_ids_increase_partial.

(* if no XFER_REFUSE was handled: the complete transfers are exactly ids
   1..k carrying the first k queued bundles, byte for byte, in order *)
Theorem C01_sender_exact :
  forall (c : cfg) (ops : list op),
    Forall (fun f => is_refuse f = false) (handled (run c ops)) ->
    let Cm := complete_of (transfers_of (segs_of (sent (run c ops)))) in
    map fst Cm = map N.of_nat (seq 1 (length Cm)) /\
    map snd Cm = firstn (length Cm) (queued c ops).
Proof. exact sender_exact. Qed.
Print Assumptions C01_sender_exact.

(* with both premises (progress, no XFER_REFUSE handled): a START segment only
   when no transfer is open, and only the last transfer can be incomplete.
   (Without the first premise this fails on the same zero-segment-size run;
   without the second a refused transfer is legitimately abandoned open.) *)
Theorem C01_sender_strict_partial :
  forall (c : cfg) (ops : list op),
    let sg := segs_of (sent (run c ops)) in
    Forall (fun g => has_start (xs_flags g) = true -> has_end (xs_flags g) = false -> xs_data g <> []) sg ->
    Forall (fun f => is_refuse f = false) (handled (run c ops)) ->
    (forall pre g post, sg = pre ++ g :: post ->
       (has_start (xs_flags g) = false -> exists acc, fst (xfold pre) = Some (xs_id g, acc)) /\
       (has_start (xs_flags g) = true -> fst (xfold pre) = None)) /\
    (forall ts t, transfers_of sg = ts ++ [t] -> Forall (fun t => tr_complete t = true) ts).
Proof. exact sender_strict. Qed.
Print Assumptions C01_sender_strict_partial.

(* the k-th accepted send_bundle_data call returned transfer id k *)
Theorem C01_send_ids :
  forall (c : cfg) (ops : list op),
    send_ids (trace (run c ops)) = map N.of_nat (seq 1 (length (queued c ops))).
Proof. exact send_ids_spec. Qed.
Print Assumptions C01_send_ids.

(* this implementation never sends XFER_REFUSE *)
Theorem C01_no_refuse_sent :
  forall (c : cfg) (ops : list op), Forall (fun f => is_refuse f = false) (sent (run c ops)).
Proof. exact no_refuse_sent. Qed.
Print Assumptions C01_no_refuse_sent.

(* every segment sent is preceded by the endpoint's SESS_INIT *)
Theorem C01_sent_init_first :
  forall (c : cfg) (ops : list op) (pre : list frame) (g : frame) (post : list frame),
    sent (run c ops) = pre ++ g :: post -> seg_of_frame g <> [] -> existsb is_sess_init pre = true.
Proof. exact sent_init_first. Qed.
Print Assumptions C01_sent_init_first.

(* success is reported only on handling an END-flagged XFER_ACK for that id *)
Theorem C01_success_acked :
  forall (c : cfg) (ops : list op) (id len : N),
    In (ESig SigSendFinished [PStrNum id; PInt len; PStr RES_SUCCESS]) (trace (run c ops)) ->
    exists fl, has_end fl = true /\ In (FMsg (MXferAck fl id len)) (handled (run c ops)).
Proof. exact success_acked. Qed.
Print Assumptions C01_success_acked.

(* A closed connection leaves no accepted transfer unreported.  The ids handed
   out by send_bundle_data are 1..|queued| (C01_send_ids).  After a close, each
   of them either was started (a "send started" signal was emitted: its outcome
   is then decided by the segments and acknowledgements), or was reported with a
   "send finished" signal carrying length 0 and the 'session terminating'
   result, or was refused by the peer (an XFER_REFUSE for it was handled, which
   reports it with the 'refused' result); and nothing is left waiting to start. *)
Theorem C01_unstarted_reported_on_close :
  forall (c : cfg) (ops : list op),
    closed (run c ops) = true ->
    forall id : N, 1 <= id <= N.of_nat (length (queued c ops)) ->
      (exists len, In (ESig SigSendStarted [PStrNum id; PInt len]) (trace (run c ops))) \/
      In (ESig SigSendFinished [PStrNum id; PInt 0; PStr RES_TERMINATING]) (trace (run c ops)) \/
      (exists r, In (FMsg (MXferRefuse r id)) (handled (run c ops))).
Proof. exact unstarted_reported_on_close. Qed.
Print Assumptions C01_unstarted_reported_on_close.

Theorem C01_closed_nothing_pending :
  forall (c : cfg) (ops : list op), closed (run c ops) = true -> pend_start (run c ops) = [].
Proof. exact closed_nothing_pending. Qed.
Print Assumptions C01_closed_nothing_pending.

(* (C) composition *)

(* C01 safety.  A and B are the two ends of a session, each after an arbitrary
   operation list.  If what each has acted on is a prefix of what the other has
   emitted, then what B has delivered so far is, in order, exactly the transfer
   ids 1..k carrying the first k bundles queued at A, byte for byte: nothing
   truncated, duplicated, merged with another transfer, or reordered. *)
Theorem C01_safety :
  forall (cA cB : cfg) (opsA opsB : list op),
    (exists r, sent (run cA opsA) = handled (run cB opsB) ++ r) ->
    (exists r, sent (run cB opsB) = handled (run cA opsA) ++ r) ->
    let D := deliver_spec (handled (run cB opsB)) in
    map fst D = map N.of_nat (seq 1 (length D)) /\
    map snd D = firstn (length D) (queued cA opsA).
Proof. exact C01_safety_core. Qed.
Print Assumptions C01_safety.

(* the same when only the forward channel hypothesis is available, given that
   A has handled no XFER_REFUSE *)
Theorem C01_safety_no_refuse :
  forall (cA cB : cfg) (opsA opsB : list op),
    (exists r, sent (run cA opsA) = handled (run cB opsB) ++ r) ->
    Forall (fun f => is_refuse f = false) (handled (run cA opsA)) ->
    let D := deliver_spec (handled (run cB opsB)) in
    map fst D = map N.of_nat (seq 1 (length D)) /\
    map snd D = firstn (length D) (queued cA opsA).
Proof. exact safety_no_refuse. Qed.
Print Assumptions C01_safety_no_refuse.

(* The sender reports success only after the receiver holds the complete
   bundle: a successful "send finished" signal for (id, len) at A implies that
   B has delivered transfer id with exactly the bundle queued under id. *)
Theorem C01_success_after_complete :
  forall (cA cB : cfg) (opsA opsB : list op),
    (exists r, sent (run cA opsA) = handled (run cB opsB) ++ r) ->
    (exists r, sent (run cB opsB) = handled (run cA opsA) ++ r) ->
    forall id len : N,
    In (ESig SigSendFinished [PStrNum id; PInt len; PStr RES_SUCCESS]) (trace (run cA opsA)) ->
    exists d, bundle_of (queued cA opsA) id = Some d /\ len = N.of_nat (length d) /\
              In (id, d) (deliver_spec (handled (run cB opsB))).
Proof. exact C01_success_core. Qed.
Print Assumptions C01_success_after_complete.

(* End to end: the channel hypotheses replaced by the hypothesis on the octet
   streams (what each side has read is a prefix of what the other side's socket
   accepted), through the C07 channel lemma. *)
Theorem C01_safety_end_to_end :
  forall (cA cB : cfg) (opsA opsB : list op),
    (exists rest, wire (run cA opsA) = received (init cB) opsB ++ rest) ->
    (exists rest, wire (run cB opsB) = received (init cA) opsA ++ rest) ->
    Forall wf_frame (sent (run cA opsA)) ->
    Forall wf_frame (sent (run cB opsB)) ->
    (sent (run cA opsA) = [] \/ exists h ms, sent (run cA opsA) = FContact h :: map FMsg ms) ->
    (sent (run cB opsB) = [] \/ exists h ms, sent (run cB opsB) = FContact h :: map FMsg ms) ->
    let D := deliver_spec (handled (run cB opsB)) in
    map fst D = map N.of_nat (seq 1 (length D)) /\
    map snd D = firstn (length D) (queued cA opsA).
Proof. exact C01_safety_e2e. Qed.
Print Assumptions C01_safety_end_to_end.

Theorem C01_success_end_to_end :
  forall (cA cB : cfg) (opsA opsB : list op),
    (exists rest, wire (run cA opsA) = received (init cB) opsB ++ rest) ->
    (exists rest, wire (run cB opsB) = received (init cA) opsA ++ rest) ->
    Forall wf_frame (sent (run cA opsA)) ->
    Forall wf_frame (sent (run cB opsB)) ->
    (sent (run cA opsA) = [] \/ exists h ms, sent (run cA opsA) = FContact h :: map FMsg ms) ->
    (sent (run cB opsB) = [] \/ exists h ms, sent (run cB opsB) = FContact h :: map FMsg ms) ->
    forall id len : N,
    In (ESig SigSendFinished [PStrNum id; PInt len; PStr RES_SUCCESS]) (trace (run cA opsA)) ->
    exists d, bundle_of (queued cA opsA) id = Some d /\ len = N.of_nat (length d) /\
              In (id, d) (deliver_spec (handled (run cB opsB))).
Proof. exact C01_success_e2e. Qed.
Print Assumptions C01_success_end_to_end.

(* non-vacuity: a concrete two-endpoint run *)
(* A (active, segment size 3) queues a 7-octet bundle (three segments), an
   empty bundle and a one-octet bundle; B (passive) is fed A's frames. *)
Definition ex_cA : cfg := mkCfg false [65] 30 0 100 3 None.
Definition ex_cB : cfg := mkCfg true [66] 30 0 100 10 None.
Definition ex_hello_B : bytes :=
  encode_frame (FContact (mkContact MAGIC 4 0)) ++ encode_msg (MSessInit 30 100 (2^64-1) [66] []).
Definition ex_opsA : list op :=
  [OStart; ORx ex_hello_B; OSend [1;2;3;4;5;6;7]; OSend []; OSend [9]]
  ++ concat (repeat [OPQ; OTxPump true 65536; OTxPump false 65536] 8).
Definition ex_sA : ep := run ex_cA ex_opsA.
Definition ex_opsB : list op :=
  [ORx (concat (map encode_frame (sent ex_sA))); OTxPump true 65536; OTxPump false 65536; OPop 2; OPop 2].
Definition ex_sB : ep := run ex_cB ex_opsB.

Example C01_ex_queued : queued ex_cA ex_opsA = [[1;2;3;4;5;6;7]; []; [9]].
Proof. vm_compute. reflexivity. Qed.
Example C01_ex_transfers :
  transfers_of (segs_of (sent ex_sA)) = [(1, [1;2;3;4;5;6;7], true); (2, [], true); (3, [9], true)].
Proof. vm_compute. reflexivity. Qed.
Example C01_ex_segments : map (fun g => (xs_flags g, xs_id g, xs_data g)) (segs_of (sent ex_sA))
  = [(2, 1, [1;2;3]); (0, 1, [4;5;6]); (1, 1, [7]); (3, 2, []); (3, 3, [9])].
Proof. vm_compute. reflexivity. Qed.
Example C01_ex_hyps :
  forallb (fun g => negb (has_start (xs_flags g)) || has_end (xs_flags g)
                    || negb (match xs_data g with [] => true | _ => false end)) (segs_of (sent ex_sA)) = true
  /\ forallb (fun f => negb (is_refuse f)) (handled ex_sA) = true.
Proof. vm_compute. split; reflexivity. Qed.
Example C01_ex_delivered : deliver_spec (handled ex_sB) = [(1, [1;2;3;4;5;6;7]); (2, []); (3, [9])].
Proof. vm_compute. reflexivity. Qed.
Example C01_ex_pop : pop_events (trace ex_sB) = [(2, [])]
  /\ last (trace ex_sB) EClosed = EExc EX_KEY /\ map fst (rx_map ex_sB) = [1; 3].
Proof. vm_compute. repeat split; reflexivity. Qed.

(* A then reads B's acknowledgements: success for all three, and both channel
   hypotheses hold on this pair of runs *)
Definition ex_opsA2 : list op :=
  ex_opsA ++ [ORx (concat (map encode_frame (skipn 2 (sent ex_sB))))].
Definition ex_sA2 : ep := run ex_cA ex_opsA2.
Example C01_ex_channel_hyps :
  (exists r, sent ex_sA2 = handled ex_sB ++ r) /\ (exists r, sent ex_sB = handled ex_sA2 ++ r).
Proof. split; exists []; vm_compute; reflexivity. Qed.
Example C01_ex_success :
  succ_events (trace ex_sA2) = [(1, 7); (2, 0); (3, 1)]
  /\ end_acks (sent ex_sB) = [(1, 7); (2, 0); (3, 1)].
Proof. vm_compute. split; reflexivity. Qed.
Definition ex_msgs (l : list frame) : list msg :=
  flat_map (fun f => match f with FMsg m => [m] | FContact _ => [] end) l.
Example C01_ex_end_to_end_hyps :
  wire ex_sA2 = received (init ex_cB) ex_opsB ++ []
  /\ wire ex_sB = received (init ex_cA) ex_opsA2 ++ []
  /\ Forall wf_frame (sent ex_sA2) /\ Forall wf_frame (sent ex_sB)
  /\ sent ex_sA2 = FContact (mkContact MAGIC 4 0) :: map FMsg (ex_msgs (sent ex_sA2))
  /\ sent ex_sB = FContact (mkContact MAGIC 4 0) :: map FMsg (ex_msgs (sent ex_sB)).
Proof.
  assert (WC : wf_contact (mkContact MAGIC 4 0)).
  { repeat split; try reflexivity. apply wf_bytesb_spec. reflexivity. }
  assert (EA : sent ex_sA2 = FContact (mkContact MAGIC 4 0) :: map FMsg (ex_msgs (sent ex_sA2)))
    by (vm_compute; reflexivity).
  assert (EB : sent ex_sB = FContact (mkContact MAGIC 4 0) :: map FMsg (ex_msgs (sent ex_sB)))
    by (vm_compute; reflexivity).
  split; [vm_compute; reflexivity|]. split; [vm_compute; reflexivity|].
  split; [|split; [|split; assumption]].
  - rewrite EA. constructor; [exact WC|]. apply Forall_map.
    apply wf_msgs_forallb. vm_compute. reflexivity.
  - rewrite EB. constructor; [exact WC|]. apply Forall_map.
    apply wf_msgs_forallb. vm_compute. reflexivity.
Qed.

(* a send_bundle_data call after the endpoint entered the terminating state is
   refused (RuntimeError), queues nothing and consumes no transfer id *)
Definition ex_ops_term : list op :=
  [OStart; ORx ex_hello_B; OSend [1]; OTerm 3; OSend [2;2]].
Example C01_ex_send_while_terminating :
  queued ex_cA ex_ops_term = [[1]]
  /\ send_ids (trace (run ex_cA ex_ops_term)) = [1]
  /\ last (trace (run ex_cA ex_ops_term)) EClosed = EExc EX_RUNTIME
  /\ map fst (pend_start (run ex_cA ex_ops_term)) = [1].
Proof. vm_compute. repeat split; reflexivity. Qed.

(* two bundles queued before the session is established, then the user closes:
   both are reported as finished with the 'terminating' result, before EClosed *)
Definition ex_ops_close : list op := [OStart; OSend [1]; OSend [2;2]; OClose].
Example C01_ex_close_reports_unstarted :
  closed (run ex_cA ex_ops_close) = true
  /\ queued ex_cA ex_ops_close = [[1]; [2;2]]
  /\ filter note (trace (run ex_cA ex_ops_close))
     = [ESig SigSendFinished [PStrNum 1; PInt 0; PStr RES_TERMINATING];
        ESig SigSendFinished [PStrNum 2; PInt 0; PStr RES_TERMINATING]]
  /\ last (trace (run ex_cA ex_ops_close)) (EExc 0) = EClosed
  /\ tx_map (run ex_cA ex_ops_close) = [].
Proof. vm_compute. repeat split; reflexivity. Qed.

(* the zero-segment-size run: the peer announces segment MRU 0 *)
Definition ex_hello_mru0 : bytes :=
  encode_frame (FContact (mkContact MAGIC 4 0)) ++ encode_msg (MSessInit 30 0 (2^64-1) [66] []).
Definition ex_ops_mru0 : list op :=
  [OStart; ORx ex_hello_mru0; OSend [1;2;3]; OPQ; OSend [4]; OPQ; OSend [5]; OPQ].
Example C01_zero_segment_size :
  map (fun g => (xs_flags g, xs_id g, xs_data g)) (segs_of (sent (run ex_cA ex_ops_mru0)))
  = [(2, 1, []); (2, 1, []); (2, 1, [])].
Proof. vm_compute. reflexivity. Qed.
