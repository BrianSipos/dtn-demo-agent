(** Theorems about the CBOR model of [Lib/Cbor.v]: test vectors, head sizes,
    [decode (encode v ++ rest) = Some (v, rest)] (hence [encode] is injective
    and prefix-free) and its forms for CBOR sequences and indefinite-length
    arrays, the strict decoder's re-encoding theorem, monotonicity in the fuel,
    and well-formedness of what the encoder and the decoders return. *)
From Coq Require Import List NArith PeanoNat Lia.
From DTN Require Import Lib.Bytes Lib.Cbor.
Import ListNotations.
Local Open Scope N_scope.

(** The vectors are those of RFC 8949 appendix A and what [cbor2.dumps] returns. *)

Example enc_uint_0 : encode (CUint 0) = [0]. Proof. reflexivity. Qed.
Example enc_uint_23 : encode (CUint 23) = [23]. Proof. reflexivity. Qed.
Example enc_uint_24 : encode (CUint 24) = [24; 24]. Proof. reflexivity. Qed.
Example enc_uint_255 : encode (CUint 255) = [24; 255]. Proof. reflexivity. Qed.
Example enc_uint_256 : encode (CUint 256) = [25; 1; 0]. Proof. reflexivity. Qed.
Example enc_uint_65535 : encode (CUint 65535) = [25; 255; 255]. Proof. reflexivity. Qed.
Example enc_uint_65536 : encode (CUint 65536) = [26; 0; 1; 0; 0]. Proof. reflexivity. Qed.
Example enc_uint_2p32m1 : encode (CUint 4294967295) = [26; 255; 255; 255; 255]. Proof. reflexivity. Qed.
Example enc_uint_2p32 : encode (CUint 4294967296) = [27; 0; 0; 0; 1; 0; 0; 0; 0]. Proof. reflexivity. Qed.
Example enc_uint_max : encode (CUint 18446744073709551615) = [27; 255; 255; 255; 255; 255; 255; 255; 255].
Proof. reflexivity. Qed.
Example enc_nint_0 : encode (CNint 0) = [32]. Proof. reflexivity. Qed.
Example enc_nint_999 : encode (CNint 999) = [57; 3; 231]. Proof. reflexivity. Qed.
Example enc_bstr : encode (CBstr [1; 2]) = [66; 1; 2]. Proof. reflexivity. Qed.
Example enc_bstr_empty : encode (CBstr []) = [64]. Proof. reflexivity. Qed.
Example enc_tstr : encode (CTstr [195; 169]) = [98; 195; 169]. Proof. reflexivity. Qed.
Example enc_tstr_dtn : encode (CTstr [100; 116; 110]) = [99; 100; 116; 110]. Proof. reflexivity. Qed.
Example enc_arr : encode (CArr [CUint 1; CArr []]) = [130; 1; 128]. Proof. reflexivity. Qed.
Example enc_map : encode (CMap [(CUint 1, CBstr [97; 98])]) = [161; 1; 66; 97; 98]. Proof. reflexivity. Qed.
Example enc_tag : encode (CTag 24 (CBstr [])) = [216; 24; 64]. Proof. reflexivity. Qed.
Example enc_false : encode (CSimple 20) = [244]. Proof. reflexivity. Qed.
Example enc_true : encode (CSimple 21) = [245]. Proof. reflexivity. Qed.
Example enc_null : encode (CSimple 22) = [246]. Proof. reflexivity. Qed.
Example enc_undefined : encode (CSimple 23) = [247]. Proof. reflexivity. Qed.

(** cbor2.dumps([1,[],{1:b'ab'},-1,'é',None,True,CBORTag(24,b'')]) *)
Definition sample : cbor :=
  CArr [CUint 1; CArr []; CMap [(CUint 1, CBstr [97; 98])]; CNint 0; CTstr [195; 169];
        CSimple 22; CSimple 21; CTag 24 (CBstr [])].

Example enc_sample :
  encode sample = [136; 1; 128; 161; 1; 66; 97; 98; 32; 98; 195; 169; 246; 245; 216; 24; 64].
Proof. reflexivity. Qed.

Example enc_indef : encode_indef_arr [CUint 1; CArr []] = [159; 1; 128; 255].
Proof. reflexivity. Qed.

Example dec_nonshortest : decode 3 [24; 1; 7] = Some (CUint 1, [7]). Proof. reflexivity. Qed.
Example dec_strict_nonshortest : decode_strict 3 [24; 1; 7] = None. Proof. reflexivity. Qed.
Example dec_indef_nested : decode 3 [159; 1; 159; 255; 130; 2; 3; 255; 9] = Some (CArr [CUint 1; CArr []; CArr [CUint 2; CUint 3]], [9]).
Proof. reflexivity. Qed.
Example dec_strict_indef : decode_strict 3 [159; 1; 255] = None. Proof. reflexivity. Qed.
Example dec_indef_bstr_rejected : decode 3 [95; 65; 1; 255] = None. Proof. reflexivity. Qed.
Example dec_indef_map_rejected : decode 3 [191; 1; 2; 255] = None. Proof. reflexivity. Qed.
Example dec_break_rejected : decode 3 [255] = None. Proof. reflexivity. Qed.
Example dec_float_rejected : decode 3 [249; 0; 0] = None. Proof. reflexivity. Qed.
Example dec_simple2_rejected : decode 3 [248; 32] = None. Proof. reflexivity. Qed.
Example dec_truncated : decode 3 [130; 1] = None. Proof. reflexivity. Qed.
Example dec_huge_count : decode 3 [155; 255; 255; 255; 255; 255; 255; 255; 255; 1] = None. Proof. reflexivity. Qed.
Example dec_huge_len : decode 3 [91; 255; 255; 255; 255; 255; 255; 255; 255; 1] = None. Proof. reflexivity. Qed.
Example dec_not_octet : decode 3 [256] = None. Proof. reflexivity. Qed.
Example dec_no_fuel : decode 1 [129; 1] = None. Proof. reflexivity. Qed.
Example dec_all_trailing : decode_all 3 [1; 2] = None. Proof. reflexivity. Qed.
Example dec_all_ok : decode_all 3 [130; 1; 2] = Some (CArr [CUint 1; CUint 2]). Proof. reflexivity. Qed.
Example dec_seq_ok : decode_seq 3 [1; 128; 246] = Some [CUint 1; CArr []; CSimple 22]. Proof. reflexivity. Qed.

(** Splits on every [N.ltb] in the goal: the size cascades of [head] and
    [head_len], once unfolded, leave their five ranges in ascending order. *)
Ltac ltb_cases :=
  repeat match goal with
         | |- context [N.ltb ?a ?b] => destruct (N.ltb_spec a b)
         end.

Theorem head_length m n : length (head m n) = head_len n.
Proof. unfold head, head_len. ltb_cases; cbn [length]; rewrite ?be_length; reflexivity. Qed.
Print Assumptions head_length.

Theorem head_len_mono a b : a <= b -> (head_len a <= head_len b)%nat.
Proof. intros Hab. unfold head_len. ltb_cases; lia. Qed.
Print Assumptions head_len_mono.

Theorem head_len_bstr_bound len n : len <= n -> (head_len len <= head_len n)%nat.
Proof. apply head_len_mono. Qed.
Print Assumptions head_len_bstr_bound.

Theorem head_len_bounds n : (1 <= head_len n <= 9)%nat.
Proof. unfold head_len. ltb_cases; lia. Qed.
Print Assumptions head_len_bounds.

Lemma head_len_small n : n < 24 -> head_len n = 1%nat.
Proof. intros Hn. unfold head_len. ltb_cases; lia. Qed.

Theorem encode_uint_length n : length (encode (CUint n)) = head_len n.
Proof. cbn [encode]. apply head_length. Qed.
Print Assumptions encode_uint_length.

Theorem encode_nint_length n : length (encode (CNint n)) = head_len n.
Proof. cbn [encode]. apply head_length. Qed.
Print Assumptions encode_nint_length.

Theorem encode_bstr_length bs :
  length (encode (CBstr bs)) = (head_len (N.of_nat (length bs)) + length bs)%nat.
Proof. cbn [encode]. rewrite app_length, head_length. reflexivity. Qed.
Print Assumptions encode_bstr_length.

Theorem encode_tstr_length bs :
  length (encode (CTstr bs)) = (head_len (N.of_nat (length bs)) + length bs)%nat.
Proof. cbn [encode]. rewrite app_length, head_length. reflexivity. Qed.
Print Assumptions encode_tstr_length.

Theorem encode_arr_length l :
  length (encode (CArr l)) = (head_len (N.of_nat (length l)) + length (encode_seq l))%nat.
Proof. rewrite encode_CArr, app_length, head_length. reflexivity. Qed.
Print Assumptions encode_arr_length.

Theorem encode_map_length kvs :
  length (encode (CMap kvs)) = (head_len (N.of_nat (length kvs)) + length (encode_pairs kvs))%nat.
Proof. rewrite encode_CMap, app_length, head_length. reflexivity. Qed.
Print Assumptions encode_map_length.

Theorem encode_tag_length t v : length (encode (CTag t v)) = (head_len t + length (encode v))%nat.
Proof. cbn [encode]. rewrite app_length, head_length. reflexivity. Qed.
Print Assumptions encode_tag_length.

Theorem encode_seq_length_cons x l :
  length (encode_seq (x :: l)) = (length (encode x) + length (encode_seq l))%nat.
Proof. rewrite encode_seq_cons, app_length. reflexivity. Qed.
Print Assumptions encode_seq_length_cons.

Theorem encode_indef_arr_length l : length (encode_indef_arr l) = (2 + length (encode_seq l))%nat.
Proof. unfold encode_indef_arr. cbn [length]. rewrite app_length. cbn [length]. lia. Qed.
Print Assumptions encode_indef_arr_length.

Definition head_info (n : N) : N :=
  if n <? 24 then n else if n <? 256 then 24 else if n <? 65536 then 25
  else if n <? 4294967296 then 26 else 27.

Definition head_arg (n : N) : bytes :=
  if n <? 24 then [] else if n <? 256 then be 1 n else if n <? 65536 then be 2 n
  else if n <? 4294967296 then be 4 n else be 8 n.

Lemma head_eq m n : head m n = (m * 32 + head_info n) :: head_arg n.
Proof. unfold head, head_info, head_arg. ltb_cases; reflexivity. Qed.

Lemma head_info_le n : head_info n <= 27.
Proof. unfold head_info. ltb_cases; lia. Qed.

Lemma head_arg_wf n : wf_bytes (head_arg n).
Proof. unfold head_arg. ltb_cases; try apply be_wf. constructor. Qed.

Lemma head_wf m n : m < 8 -> wf_bytes (head m n).
Proof.
  intros Hm. rewrite head_eq. constructor; [|apply head_arg_wf].
  unfold wf_byte. pose proof (head_info_le n). lia.
Qed.

Theorem encode_hd v : exists b, hd_error (encode v) = Some b /\ b < 252.
Proof.
  assert (H : forall m n X, m < 8 -> exists b, hd_error (head m n ++ X) = Some b /\ b < 252).
  { intros m n X Hm. rewrite head_eq. cbn [app hd_error]. eexists. split; [reflexivity|].
    pose proof (head_info_le n). lia. }
  destruct v; cbn [encode]; try (apply H; lia);
    try (rewrite <- (app_nil_r (head _ _)); apply H; lia).
Qed.
Print Assumptions encode_hd.

Theorem encode_nonempty v : encode v <> [].
Proof. destruct (encode_hd v) as (b & Hb & _). intros E. rewrite E in Hb. discriminate. Qed.
Print Assumptions encode_nonempty.

Theorem encode_not_break v : hd_error (encode v) <> Some 255.
Proof. destruct (encode_hd v) as (b & Hb & Hlt). rewrite Hb. intros E. injection E as E. lia. Qed.
Print Assumptions encode_not_break.

Lemma encode_length_pos v : (1 <= length (encode v))%nat.
Proof. pose proof (encode_nonempty v). destruct (encode v); [congruence|cbn [length]; lia]. Qed.

Lemma encode_seq_length_ge l : (length l <= length (encode_seq l))%nat.
Proof.
  induction l as [|x l IH]; [cbn; lia|].
  rewrite encode_seq_cons, app_length. cbn [length]. pose proof (encode_length_pos x). lia.
Qed.

Lemma encode_pairs_length_ge kvs : (2 * length kvs <= length (encode_pairs kvs))%nat.
Proof.
  induction kvs as [|[k w] l IH]; [cbn; lia|].
  rewrite encode_pairs_cons, !app_length. cbn [length].
  pose proof (encode_length_pos k). pose proof (encode_length_pos w). lia.
Qed.

Lemma initial_octet m i :
  m < 8 -> i < 32 -> (256 <=? m * 32 + i) = false /\ (m * 32 + i) / 32 = m /\ (m * 32 + i) mod 32 = i.
Proof. intros Hm Hi. repeat split; lia. Qed.

Lemma decode_head_short m i tl :
  m < 8 -> i < 24 -> decode_head ((m * 32 + i) :: tl) = Some (m, i, 1%nat, tl).
Proof.
  intros Hm Hi. unfold decode_head. cbv zeta. destruct (initial_octet m i) as (-> & -> & ->); [lia..|].
  rewrite (proj2 (N.ltb_lt i 24) Hi). reflexivity.
Qed.

Lemma info_width_Some i k : info_width i = Some k -> 24 <= i <= 27 /\ (1 <= k <= 8)%nat.
Proof.
  unfold info_width.
  destruct (N.eqb_spec i 24); [intros [= <-]; lia|]. destruct (N.eqb_spec i 25); [intros [= <-]; lia|].
  destruct (N.eqb_spec i 26); [intros [= <-]; lia|]. destruct (N.eqb_spec i 27); [intros [= <-]; lia|]. discriminate.
Qed.

Lemma decode_head_long m i k n rest :
  m < 8 -> info_width i = Some k -> n < 256 ^ N.of_nat k ->
  decode_head ((m * 32 + i) :: be k n ++ rest) = Some (m, n, S k, rest).
Proof.
  intros Hm Hi Hn. destruct (info_width_Some i k Hi) as [Hr _].
  unfold decode_head. cbv zeta. destruct (initial_octet m i) as (-> & -> & ->); [lia..|].
  rewrite (proj2 (N.ltb_ge i 24)), Hi, (take_be_app k n rest Hn) by lia. reflexivity.
Qed.

Lemma decode_head_head m n rest :
  m < 8 -> n < two64 -> decode_head (head m n ++ rest) = Some (m, n, head_len n, rest).
Proof.
  intros Hm Hn. unfold head, head_len. ltb_cases; cbn [app].
  - apply decode_head_short; assumption.
  - apply (decode_head_long m 24 1); [assumption|reflexivity|assumption].
  - apply (decode_head_long m 25 2); [assumption|reflexivity|assumption].
  - apply (decode_head_long m 26 4); [assumption|reflexivity|assumption].
  - apply (decode_head_long m 27 8); [assumption|reflexivity|assumption].
Qed.

Lemma indef_start_head m n rest : indef_start (head m n ++ rest) = None.
Proof.
  rewrite head_eq. cbn [app indef_start]. pose proof (head_info_le n) as Hi.
  destruct (N.eqb_spec (m * 32 + head_info n) 159) as [E|E]; [lia|reflexivity].
Qed.

Lemma head_okb_head strict m n rest : head_okb strict (head m n ++ rest) m n (head_len n) = true.
Proof.
  unfold head_okb. destruct strict; [|reflexivity].
  rewrite <- (head_length m n), firstn_len_app. apply bytes_eqb_refl.
Qed.

Lemma step_head dec strict m n rest :
  m < 8 -> n < two64 -> step dec strict (head m n ++ rest) = dispatch dec m n (head_len n) rest.
Proof.
  intros Hm Hn. unfold step.
  replace (if strict then None else indef_start (head m n ++ rest)) with (@None bytes)
    by (destruct strict; [reflexivity | symmetry; apply indef_start_head]).
  rewrite (decode_head_head m n rest Hm Hn), head_okb_head. reflexivity.
Qed.

Lemma take_n_app bs rest : take_n (N.of_nat (length bs)) (bs ++ rest) = Some (bs, rest).
Proof.
  unfold take_n. rewrite app_length.
  destruct (N.ltb_spec (N.of_nat (length bs + length rest)) (N.of_nat (length bs))) as [H|H]; [lia|].
  rewrite Nnat.Nat2N.id, firstn_len_app, skipn_len_app. reflexivity.
Qed.

Section Loops.
  Variable dec : bytes -> option (cbor * bytes).

  Definition inverts (x : cbor) : Prop := forall rest, dec (encode x ++ rest) = Some (x, rest).

  Lemma dec_items_encode l rest :
    Forall inverts l -> dec_items dec (length l) (encode_seq l ++ rest) = Some (l, rest).
  Proof.
    induction 1 as [|x l Hx _ IH]; cbn [length dec_items]; [reflexivity|].
    rewrite encode_seq_cons, <- app_assoc, Hx, IH. reflexivity.
  Qed.

  Lemma dec_pairs_encode kvs rest :
    Forall (fun kv => inverts (fst kv) /\ inverts (snd kv)) kvs ->
    dec_pairs dec (length kvs) (encode_pairs kvs ++ rest) = Some (kvs, rest).
  Proof.
    induction 1 as [|[k w] l [Hk Hw] _ IH]; cbn [length dec_pairs fst snd] in *; [reflexivity|].
    rewrite encode_pairs_cons, <- !app_assoc, Hk, Hw, IH. reflexivity.
  Qed.

  Lemma dec_until_break_step cnt bs b :
    hd_error bs = Some b -> b <> 255 ->
    dec_until_break dec (S cnt) bs =
    match dec bs with
    | None => None
    | Some (v, rest) =>
        match dec_until_break dec cnt rest with
        | None => None
        | Some (l, rest') => Some (v :: l, rest')
        end
    end.
  Proof.
    intros Hb Hne. destruct bs as [|b' tl]; [discriminate|]. cbn [hd_error] in Hb.
    injection Hb as ->. cbn [dec_until_break].
    destruct (N.eqb_spec b 255) as [E|E]; [contradiction|reflexivity].
  Qed.

  Lemma dec_until_break_encode l rest :
    Forall inverts l -> forall cnt, (length l < cnt)%nat ->
    dec_until_break dec cnt (encode_seq l ++ 255 :: rest) = Some (l, rest).
  Proof.
    induction 1 as [|x l Hx _ IH]; intros [|cnt] Hcnt; cbn [length] in Hcnt; try lia.
    - cbn [encode_seq map concat app dec_until_break]. rewrite N.eqb_refl. reflexivity.
    - rewrite encode_seq_cons, <- app_assoc.
      destruct (encode_hd x) as (b & Hb & Hlt).
      rewrite (dec_until_break_step cnt _ b); [|apply hd_error_app, Hb|lia].
      rewrite Hx, IH by lia. reflexivity.
  Qed.

  Lemma dec_seq_encode l :
    Forall inverts l -> forall cnt, (length l <= cnt)%nat -> dec_seq dec cnt (encode_seq l) = Some l.
  Proof.
    induction 1 as [|x l Hx _ IH]; intros cnt Hcnt; [destruct cnt; reflexivity|].
    destruct cnt as [|cnt]; cbn [length] in Hcnt; [lia|].
    rewrite encode_seq_cons.
    destruct (encode x ++ encode_seq l) as [|b tl] eqn:E.
    { apply app_eq_nil in E as [E _]. destruct (encode_nonempty x E). }
    cbn [dec_seq]. rewrite <- E, Hx, IH by lia. reflexivity.
  Qed.

  Lemma step_encode strict v :
    wf v -> (forall c, (depth c < depth v)%nat -> wf c -> inverts c) ->
    forall rest, step dec strict (encode v ++ rest) = Some (v, rest).
  Proof.
    intros Hwf Hdec rest.
    destruct v as [n|n|bs|bs|l|kvs|t w|n].
    1, 2: cbn [encode wf] in *; rewrite step_head by lia; reflexivity.
    1, 2: cbn [encode wf] in *; destruct Hwf as [Hl Hb];
      rewrite <- app_assoc, step_head by lia; unfold dispatch; rewrite take_n_app; reflexivity.
    - apply wf_CArr in Hwf as [Hl Hall]. rewrite Forall_forall in Hall.
      rewrite encode_CArr, <- app_assoc, step_head by lia. unfold dispatch.
      pose proof (encode_seq_length_ge l) as Hge.
      destruct (N.ltb_spec (N.of_nat (length (encode_seq l ++ rest))) (N.of_nat (length l))) as [H|H];
        [rewrite app_length in H; lia|].
      rewrite Nnat.Nat2N.id, dec_items_encode; [reflexivity|].
      apply Forall_forall. intros x Hx. apply Hdec; [apply depth_CArr_In, Hx | apply Hall, Hx].
    - apply wf_CMap in Hwf as [Hl Hall]. rewrite Forall_forall in Hall.
      rewrite encode_CMap, <- app_assoc, step_head by lia. unfold dispatch.
      pose proof (encode_pairs_length_ge kvs) as Hge.
      destruct (N.ltb_spec (N.of_nat (length (encode_pairs kvs ++ rest))) (2 * N.of_nat (length kvs))) as [H|H];
        [rewrite app_length in H; lia|].
      rewrite Nnat.Nat2N.id, dec_pairs_encode; [reflexivity|].
      apply Forall_forall. intros [k w'] Hin.
      destruct (depth_CMap_In kvs k w' Hin) as [Dk Dw], (Hall (k, w') Hin) as [Wk Ww].
      split; apply Hdec; assumption.
    - cbn [encode] in *. apply wf_CTag in Hwf as [Ht Hw].
      rewrite <- app_assoc, step_head by lia. unfold dispatch.
      rewrite Hdec; [reflexivity | cbn [depth]; lia | exact Hw].
    - cbn [encode wf] in *. rewrite step_head by lia. unfold dispatch.
      rewrite (head_len_small n Hwf). reflexivity.
  Qed.

  Lemma step_indef tl :
    step dec false (159 :: tl) =
    match dec_until_break dec (length tl) tl with
    | None => None
    | Some (l, rest) => Some (CArr l, rest)
    end.
  Proof. reflexivity. Qed.
End Loops.

Theorem decode_gen_encode strict : forall fuel v rest,
  wf v -> (depth v <= fuel)%nat -> decode_gen strict fuel (encode v ++ rest) = Some (v, rest).
Proof.
  induction fuel as [|f IH]; intros v rest Hwf Hd.
  - pose proof (depth_pos v). lia.
  - rewrite decode_gen_S. apply step_encode; [exact Hwf|].
    intros c Hc Hwfc rest'. apply IH; [exact Hwfc|lia].
Qed.
Print Assumptions decode_gen_encode.

Lemma decode_gen_encode_nil strict fuel v :
  wf v -> (depth v <= fuel)%nat -> decode_gen strict fuel (encode v) = Some (v, []).
Proof. intros Hwf Hd. rewrite <- (app_nil_r (encode v)) at 1. apply decode_gen_encode; assumption. Qed.

Theorem decode_encode_depth v rest fuel :
  wf v -> (depth v <= fuel)%nat -> decode fuel (encode v ++ rest) = Some (v, rest).
Proof. intros Hwf Hd. apply decode_gen_encode; assumption. Qed.
Print Assumptions decode_encode_depth.

Theorem decode_encode v rest fuel :
  wf v -> (size v <= fuel)%nat -> decode fuel (encode v ++ rest) = Some (v, rest).
Proof. intros Hwf Hs. apply decode_encode_depth; [exact Hwf|]. pose proof (depth_le_size v). lia. Qed.
Print Assumptions decode_encode.

Theorem decode_strict_encode v rest fuel :
  wf v -> (depth v <= fuel)%nat -> decode_strict fuel (encode v ++ rest) = Some (v, rest).
Proof. intros Hwf Hd. apply decode_gen_encode; assumption. Qed.
Print Assumptions decode_strict_encode.

Theorem decode_all_encode v fuel : wf v -> (depth v <= fuel)%nat -> decode_all fuel (encode v) = Some v.
Proof. intros Hwf Hd. unfold decode_all, decode. rewrite decode_gen_encode_nil by assumption. reflexivity. Qed.
Print Assumptions decode_all_encode.

(** non-vacuity of the hypotheses *)
Example sample_wf : wf sample /\ (depth sample <= 3)%nat /\ (size sample <= 12)%nat.
Proof. split; [apply wfb_spec; vm_compute; reflexivity | vm_compute; lia]. Qed.

Theorem encode_prefix_free a b ra rb :
  wf a -> wf b -> encode a ++ ra = encode b ++ rb -> a = b /\ ra = rb.
Proof.
  intros Ha Hb E.
  pose proof (decode_encode_depth a ra (Nat.max (depth a) (depth b)) Ha (Nat.le_max_l _ _)) as Da.
  pose proof (decode_encode_depth b rb (Nat.max (depth a) (depth b)) Hb (Nat.le_max_r _ _)) as Db.
  rewrite E, Db in Da. injection Da as -> ->. split; reflexivity.
Qed.
Print Assumptions encode_prefix_free.

Theorem encode_inj a b : wf a -> wf b -> encode a = encode b -> a = b.
Proof.
  intros Ha Hb E. apply (encode_prefix_free a b [] []); [exact Ha | exact Hb |].
  rewrite !app_nil_r. exact E.
Qed.
Print Assumptions encode_inj.

Lemma decode_gen_inverts strict fuel l :
  Forall wf l -> Forall (fun v => (depth v <= fuel)%nat) l -> Forall (inverts (decode_gen strict fuel)) l.
Proof.
  intros Hwf Hd. rewrite Forall_forall in *.
  intros x Hx rest. apply decode_gen_encode; [apply Hwf, Hx | apply Hd, Hx].
Qed.

Theorem decode_seq_encode_seq l fuel :
  Forall wf l -> Forall (fun v => (depth v <= fuel)%nat) l ->
  decode_seq fuel (encode_seq l) = Some l.
Proof.
  intros Hwf Hd. unfold decode_seq.
  apply dec_seq_encode; [apply decode_gen_inverts; assumption | apply encode_seq_length_ge].
Qed.
Print Assumptions decode_seq_encode_seq.

Theorem decode_seq_strict_encode_seq l fuel :
  Forall wf l -> Forall (fun v => (depth v <= fuel)%nat) l ->
  decode_seq_strict fuel (encode_seq l) = Some l.
Proof.
  intros Hwf Hd. unfold decode_seq_strict.
  apply dec_seq_encode; [apply decode_gen_inverts; assumption | apply encode_seq_length_ge].
Qed.
Print Assumptions decode_seq_strict_encode_seq.

(** No bound on the number of items is needed here: the count is not
    transmitted. *)
Theorem decode_indef l rest fuel :
  Forall wf l -> Forall (fun v => (depth v <= fuel)%nat) l ->
  decode (S fuel) (encode_indef_arr l ++ rest) = Some (CArr l, rest).
Proof.
  intros Hwf Hd. unfold decode. rewrite decode_gen_S. unfold encode_indef_arr.
  cbn [app]. rewrite <- app_assoc. cbn [app].
  rewrite step_indef, dec_until_break_encode; [reflexivity | apply decode_gen_inverts; assumption |].
  rewrite app_length. cbn [length]. pose proof (encode_seq_length_ge l). lia.
Qed.
Print Assumptions decode_indef.

Lemma depth_CArr_le l fuel : (depth (CArr l) <= S fuel)%nat <-> Forall (fun v => (depth v <= fuel)%nat) l.
Proof.
  cbn [depth]. induction l as [|x l IH]; cbn [fold_right].
  - split; [constructor|lia].
  - split.
    + intros H. constructor; [lia|]. apply IH. lia.
    + intros H. inversion H as [|? ? Hx Hl]; subst. apply IH in Hl. lia.
Qed.

(** the fuel in terms of the decoded value *)
Theorem decode_indef_depth l rest fuel :
  Forall wf l -> (depth (CArr l) <= fuel)%nat ->
  decode fuel (encode_indef_arr l ++ rest) = Some (CArr l, rest).
Proof.
  intros Hwf Hd. destruct fuel as [|f]; [cbn [depth] in Hd; lia|].
  apply decode_indef; [exact Hwf|]. apply depth_CArr_le. exact Hd.
Qed.
Print Assumptions decode_indef_depth.

Example decode_indef_nonvacuous :
  Forall wf [sample; CUint 7] /\ (depth (CArr [sample; CUint 7]) <= 4)%nat.
Proof.
  split; [|vm_compute; lia].
  repeat constructor; try (apply wfb_spec; vm_compute; reflexivity).
Qed.

Theorem encode_wf v : wf v -> wf_bytes (encode v).
Proof.
  induction v as [n|n|bs|bs|l IH|kvs IH|t w IH|n] using cbor_ind'; intros Hwf.
  1, 2: cbn [encode]; apply head_wf; lia.
  1, 2: cbn [encode wf] in *; apply wf_bytes_app; split; [apply head_wf; lia | tauto].
  - apply wf_CArr in Hwf as [_ Hall]. rewrite encode_CArr. apply wf_bytes_app.
    split; [apply head_wf; lia|].
    apply Forall_concat, Forall_map. rewrite Forall_forall in *.
    intros x Hx. apply (IH x Hx), Hall, Hx.
  - apply wf_CMap in Hwf as [_ Hall]. rewrite encode_CMap. apply wf_bytes_app.
    split; [apply head_wf; lia|].
    apply Forall_concat, Forall_map. rewrite Forall_forall in *.
    intros kv Hkv. apply wf_bytes_app. split; apply (IH kv Hkv), (Hall kv Hkv).
  - cbn [encode]. apply wf_CTag in Hwf as [_ Hw]. apply wf_bytes_app.
    split; [apply head_wf; lia | apply IH, Hw].
  - cbn [encode]. apply head_wf. lia.
Qed.
Print Assumptions encode_wf.

Theorem encode_seq_wf l : Forall wf l -> wf_bytes (encode_seq l).
Proof.
  intros H. apply Forall_concat, Forall_map. exact (Forall_impl _ encode_wf H).
Qed.
Print Assumptions encode_seq_wf.

Theorem encode_indef_arr_wf l : Forall wf l -> wf_bytes (encode_indef_arr l).
Proof.
  intros H. unfold encode_indef_arr. constructor; [unfold wf_byte; lia|].
  apply wf_bytes_app. split; [apply encode_seq_wf, H|]. constructor; [unfold wf_byte; lia|constructor].
Qed.
Print Assumptions encode_indef_arr_wf.

Theorem size_le_length v : (size v <= length (encode v))%nat.
Proof.
  induction v as [n|n|bs|bs|l IH|kvs IH|t w IH|n] using cbor_ind'.
  1-4, 8: apply encode_length_pos.
  - rewrite encode_arr_length. cbn [size].
    assert (H : (fold_right (fun x acc => (size x + acc)%nat) O l <= length (encode_seq l))%nat).
    { induction IH as [|x l Hx _ IHl]; [cbn; lia|].
      cbn [fold_right]. rewrite encode_seq_length_cons. lia. }
    pose proof (head_len_bounds (N.of_nat (length l))) as Hh. lia.
  - rewrite encode_map_length. cbn [size].
    assert (H : (fold_right (fun kv acc => (size (fst kv) + size (snd kv) + acc)%nat) O kvs
                 <= length (encode_pairs kvs))%nat).
    { induction IH as [|[k w] l [Hk Hw] _ IHl]; [cbn; lia|].
      cbn [fold_right fst snd] in *. rewrite encode_pairs_cons, !app_length. lia. }
    pose proof (head_len_bounds (N.of_nat (length kvs))) as Hh. lia.
  - rewrite encode_tag_length. pose proof (head_len_bounds t). cbn [size]. lia.
Qed.
Print Assumptions size_le_length.

Lemma size_seq_le l : (fold_right (fun x acc => (size x + acc)%nat) O l <= length (encode_seq l))%nat.
Proof.
  induction l as [|x l IH]; cbn [fold_right]; [cbn; lia|].
  rewrite encode_seq_length_cons. pose proof (size_le_length x). lia.
Qed.

Theorem decode_encode_length v rest :
  wf v -> decode (length (encode v)) (encode v ++ rest) = Some (v, rest).
Proof. intros Hwf. apply decode_encode; [exact Hwf | apply size_le_length]. Qed.
Print Assumptions decode_encode_length.

Lemma decode_head_inv bs m n c rest : decode_head bs = Some (m, n, c, rest) -> rest = skipn c bs.
Proof.
  destruct bs as [|b tl]; [discriminate|]. unfold decode_head. cbv zeta.
  destruct (256 <=? b); [discriminate|].
  destruct (b mod 32 <? 24); [intros H; inversion H; reflexivity|].
  destruct (info_width (b mod 32)) as [k|]; [|discriminate].
  unfold take_be. destruct (length tl <? k)%nat; [discriminate|].
  intros H. inversion H; reflexivity.
Qed.

Lemma head_okb_true bs m n c rest :
  decode_head bs = Some (m, n, c, rest) -> head_okb true bs m n c = true -> bs = head m n ++ rest.
Proof.
  intros Hd Hok. apply decode_head_inv in Hd as ->. unfold head_okb in Hok.
  apply bytes_eqb_eq in Hok. rewrite <- Hok. symmetry. apply firstn_skipn.
Qed.

Lemma take_n_inv n bs s rest :
  take_n n bs = Some (s, rest) -> bs = s ++ rest /\ N.of_nat (length s) = n.
Proof.
  unfold take_n. destruct (N.ltb_spec (N.of_nat (length bs)) n) as [H|H]; [discriminate|].
  intros E. inversion E; subst. split; [symmetry; apply firstn_skipn|].
  rewrite firstn_length_le by lia. lia.
Qed.

Lemma indef_start_inv bs tl : indef_start bs = Some tl -> bs = 159 :: tl.
Proof.
  destruct bs as [|b t]; [discriminate|]. cbn [indef_start].
  destruct (N.eqb_spec b 159) as [->|_]; [|discriminate]. intros H. inversion H; subst. reflexivity.
Qed.

(** The results of [dispatch dec m n c rest], by major type [m]: the traversals
    of the decoder below destruct this instead of [dispatch]. *)
Inductive dispatched (dec : bytes -> option (cbor * bytes)) (n : N) (c : nat) (rest : bytes) :
  N -> cbor -> bytes -> Prop :=
| D_uint : dispatched dec n c rest 0 (CUint n) rest
| D_nint : dispatched dec n c rest 1 (CNint n) rest
| D_bstr s r : take_n n rest = Some (s, r) -> dispatched dec n c rest 2 (CBstr s) r
| D_tstr s r : take_n n rest = Some (s, r) -> dispatched dec n c rest 3 (CTstr s) r
| D_arr l r : (N.of_nat (length rest) <? n) = false -> dec_items dec (N.to_nat n) rest = Some (l, r) ->
              dispatched dec n c rest 4 (CArr l) r
| D_map l r : (N.of_nat (length rest) <? 2 * n) = false -> dec_pairs dec (N.to_nat n) rest = Some (l, r) ->
              dispatched dec n c rest 5 (CMap l) r
| D_tag w r : dec rest = Some (w, r) -> dispatched dec n c rest 6 (CTag n w) r
| D_simple : c = 1%nat -> dispatched dec n c rest 7 (CSimple n) rest.

Lemma dispatch_Some dec m n c rest v r :
  dispatch dec m n c rest = Some (v, r) -> dispatched dec n c rest m v r.
Proof.
  unfold dispatch. intros H.
  (* the cases come in the order of the binary numerals: 0, 7, 5, 3, 6, 4, 2, 1 *)
  destruct m as [|[[[p|p|]|[p|p|]|]|[[p|p|]|[p|p|]|]|]]; try discriminate H.
  - injection H as <- <-. constructor.
  - destruct (Nat.eqb_spec c 1); [|discriminate]. injection H as <- <-. constructor. assumption.
  - destruct (_ <? _) eqn:L; [discriminate|].
    destruct (dec_pairs _ _ _) as [[l r']|] eqn:T; [|discriminate]. injection H as <- <-. constructor; assumption.
  - destruct (take_n n rest) as [[s r']|] eqn:T; [|discriminate]. injection H as <- <-. constructor. assumption.
  - destruct (dec rest) as [[w r']|] eqn:T; [|discriminate]. injection H as <- <-. constructor. assumption.
  - destruct (_ <? _) eqn:L; [discriminate|].
    destruct (dec_items _ _ _) as [[l r']|] eqn:T; [|discriminate]. injection H as <- <-. constructor; assumption.
  - destruct (take_n n rest) as [[s r']|] eqn:T; [|discriminate]. injection H as <- <-. constructor. assumption.
  - injection H as <- <-. constructor.
Qed.

Lemma step_Some dec strict bs v rest :
  step dec strict bs = Some (v, rest) ->
  (strict = false /\ exists tl l,
     bs = 159 :: tl /\ dec_until_break dec (length tl) tl = Some (l, rest) /\ v = CArr l) \/
  (exists m n c r, decode_head bs = Some (m, n, c, r) /\ head_okb strict bs m n c = true /\
                   dispatched dec n c r m v rest).
Proof.
  unfold step. destruct (if strict then None else indef_start bs) as [tl|] eqn:Ei.
  - destruct strict; [discriminate|]. apply indef_start_inv in Ei as ->.
    destruct (dec_until_break dec (length tl) tl) as [[l r]|] eqn:T; [|discriminate].
    intros H. injection H as <- <-. left. split; [reflexivity|]. exists tl, l. auto.
  - destruct (decode_head bs) as [[[[m n] c] r]|]; [|discriminate].
    destruct (head_okb strict bs m n c) eqn:Hok; [|discriminate].
    intros H. right. exists m, n, c, r. repeat split; [exact Hok|]. apply dispatch_Some, H.
Qed.

Section StrictInv.
  Variable dec : bytes -> option (cbor * bytes).
  Hypothesis Hdec : forall bs v rest, dec bs = Some (v, rest) -> bs = encode v ++ rest.

  Lemma dec_items_inv : forall n bs l rest,
    dec_items dec n bs = Some (l, rest) -> bs = encode_seq l ++ rest /\ length l = n.
  Proof.
    induction n as [|n IH]; intros bs l rest H; cbn [dec_items] in H.
    - inversion H; subst. split; reflexivity.
    - destruct (dec bs) as [[v r]|] eqn:E; [|discriminate].
      destruct (dec_items dec n r) as [[l' r']|] eqn:E2; [|discriminate].
      inversion H; subst. apply Hdec in E. apply IH in E2 as [E2 El]. subst bs r.
      rewrite encode_seq_cons, <- app_assoc. cbn [length]. split; [reflexivity|lia].
  Qed.

  Lemma dec_pairs_inv : forall n bs l rest,
    dec_pairs dec n bs = Some (l, rest) -> bs = encode_pairs l ++ rest /\ length l = n.
  Proof.
    induction n as [|n IH]; intros bs l rest H; cbn [dec_pairs] in H.
    - inversion H; subst. split; reflexivity.
    - destruct (dec bs) as [[k r]|] eqn:E; [|discriminate].
      destruct (dec r) as [[w r1]|] eqn:E1; [|discriminate].
      destruct (dec_pairs dec n r1) as [[l' r']|] eqn:E2; [|discriminate].
      inversion H; subst. apply Hdec in E. apply Hdec in E1. apply IH in E2 as [E2 El]. subst bs r r1.
      rewrite encode_pairs_cons, <- !app_assoc. cbn [length]. split; [reflexivity|lia].
  Qed.

  Lemma dec_seq_inv : forall cnt bs l, dec_seq dec cnt bs = Some l -> bs = encode_seq l.
  Proof.
    induction cnt as [|cnt IH]; intros bs l H.
    - destruct bs; cbn [dec_seq] in H; [|discriminate]. inversion H; subst. reflexivity.
    - destruct bs as [|b tl]; cbn [dec_seq] in H; [inversion H; subst; reflexivity|].
      destruct (dec (b :: tl)) as [[v r]|] eqn:E; [|discriminate].
      destruct (dec_seq dec cnt r) as [l'|] eqn:E2; [|discriminate].
      inversion H; subst. apply Hdec in E. apply IH in E2. subst r. rewrite E, encode_seq_cons. reflexivity.
  Qed.

  Lemma step_strict_inv bs v rest : step dec true bs = Some (v, rest) -> bs = encode v ++ rest.
  Proof.
    intros H. apply step_Some in H as [[? _]|(m & n & c & r & Eh & Hok & H)]; [discriminate|].
    rewrite (head_okb_true bs m n c r Eh Hok).
    destruct H as [ | |s r' T|s r' T|l r' _ T|l r' _ T|w r' T|_]; try reflexivity.
    1, 2: apply take_n_inv in T as [-> <-]; cbn [encode]; rewrite <- app_assoc; reflexivity.
    - apply dec_items_inv in T as [-> El]. rewrite encode_CArr, <- app_assoc, El, N2Nat.id. reflexivity.
    - apply dec_pairs_inv in T as [-> El]. rewrite encode_CMap, <- app_assoc, El, N2Nat.id. reflexivity.
    - apply Hdec in T as ->. cbn [encode]. rewrite <- app_assoc. reflexivity.
  Qed.
End StrictInv.

Theorem decode_strict_reencode : forall fuel bs v rest,
  decode_strict fuel bs = Some (v, rest) -> bs = encode v ++ rest.
Proof.
  unfold decode_strict. induction fuel as [|f IH]; intros bs v rest H; [discriminate|].
  rewrite decode_gen_S in H. apply (step_strict_inv (decode_gen true f) IH). exact H.
Qed.

Theorem decode_seq_strict_reencode fuel bs l : decode_seq_strict fuel bs = Some l -> bs = encode_seq l.
Proof. unfold decode_seq_strict. apply dec_seq_inv. apply decode_strict_reencode. Qed.
Print Assumptions decode_seq_strict_reencode.

Theorem decode_strict_iff v bs rest :
  wf v -> ((exists fuel, decode_strict fuel bs = Some (v, rest)) <-> bs = encode v ++ rest).
Proof.
  intros Hwf. split.
  - intros [fuel H]. apply decode_strict_reencode in H. exact H.
  - intros ->. exists (depth v). apply decode_strict_encode; [exact Hwf|lia].
Qed.
Print Assumptions decode_strict_iff.

Definition dec_le (d d' : bytes -> option (cbor * bytes)) : Prop :=
  forall bs r, d bs = Some r -> d' bs = Some r.

Lemma decode_head_not_indef bs x : decode_head bs = Some x -> indef_start bs = None.
Proof.
  destruct bs as [|b tl]; [reflexivity|]. cbn [indef_start].
  destruct (N.eqb_spec b 159) as [->|Hb]; [|reflexivity].
  vm_compute. discriminate. (* additional information 31 is refused before [tl] is looked at *)
Qed.

Section Mono.
  Variables d d' : bytes -> option (cbor * bytes).
  Hypothesis Hle : dec_le d d'.

  Lemma dec_items_mono : forall n bs r, dec_items d n bs = Some r -> dec_items d' n bs = Some r.
  Proof.
    induction n as [|n IH]; intros bs r H; cbn [dec_items] in *; [exact H|].
    destruct (d bs) as [[v r1]|] eqn:E; [|discriminate]. rewrite (Hle _ _ E).
    destruct (dec_items d n r1) as [[l r2]|] eqn:E2; [|discriminate]. rewrite (IH _ _ E2). exact H.
  Qed.

  Lemma dec_pairs_mono : forall n bs r, dec_pairs d n bs = Some r -> dec_pairs d' n bs = Some r.
  Proof.
    induction n as [|n IH]; intros bs r H; cbn [dec_pairs] in *; [exact H|].
    destruct (d bs) as [[k r1]|] eqn:E; [|discriminate]. rewrite (Hle _ _ E).
    destruct (d r1) as [[w r2]|] eqn:E1; [|discriminate]. rewrite (Hle _ _ E1).
    destruct (dec_pairs d n r2) as [[l r3]|] eqn:E2; [|discriminate]. rewrite (IH _ _ E2). exact H.
  Qed.

  Lemma dec_until_break_mono : forall cnt bs r,
    dec_until_break d cnt bs = Some r -> dec_until_break d' cnt bs = Some r.
  Proof.
    induction cnt as [|cnt IH]; intros bs r H; cbn [dec_until_break] in *; [exact H|].
    destruct bs as [|b tl]; [exact H|]. destruct (b =? 255); [exact H|].
    destruct (d (b :: tl)) as [[v r1]|] eqn:E; [|discriminate]. rewrite (Hle _ _ E).
    destruct (dec_until_break d cnt r1) as [[l r2]|] eqn:E2; [|discriminate]. rewrite (IH _ _ E2). exact H.
  Qed.

  Lemma dec_seq_mono : forall cnt bs l, dec_seq d cnt bs = Some l -> dec_seq d' cnt bs = Some l.
  Proof.
    induction cnt as [|cnt IH]; intros bs l H; destruct bs as [|b tl]; cbn [dec_seq] in *; try exact H.
    destruct (d (b :: tl)) as [[v r1]|] eqn:E; [|discriminate]. rewrite (Hle _ _ E).
    destruct (dec_seq d cnt r1) as [l'|] eqn:E2; [|discriminate]. rewrite (IH _ _ E2). exact H.
  Qed.

  Lemma dispatch_mono m n c rest r : dispatch d m n c rest = Some r -> dispatch d' m n c rest = Some r.
  Proof.
    destruct r as [v r]. intros H. pose proof (dispatch_Some _ _ _ _ _ _ _ H) as S.
    destruct S as [ | |s r' T|s r' T|l r' L T|l r' L T|w r' T|Hc]; try exact H; unfold dispatch.
    - rewrite L, (dec_items_mono _ _ _ T). reflexivity.
    - rewrite L, (dec_pairs_mono _ _ _ T). reflexivity.
    - rewrite (Hle _ _ T). reflexivity.
  Qed.

  Lemma step_mono strict bs r : step d strict bs = Some r -> step d' strict bs = Some r.
  Proof.
    unfold step. destruct (if strict then None else indef_start bs) as [tl|].
    - destruct (dec_until_break d (length tl) tl) as [[l r']|] eqn:T; [|discriminate].
      rewrite (dec_until_break_mono _ _ _ T). intros H; exact H.
    - destruct (decode_head bs) as [[[[m n] c] r']|]; [|discriminate].
      destruct (head_okb strict bs m n c); [|discriminate]. apply dispatch_mono.
  Qed.

  Lemma step_strict_sub bs r : step d true bs = Some r -> step d' false bs = Some r.
  Proof.
    unfold step.
    destruct (decode_head bs) as [[[[m n] c] r']|] eqn:Eh; [|discriminate].
    rewrite (decode_head_not_indef _ _ Eh).
    destruct (head_okb true bs m n c); [|discriminate]. cbn [head_okb]. apply dispatch_mono.
  Qed.
End Mono.

Theorem decode_gen_fuel_mono strict : forall f f', (f <= f')%nat -> dec_le (decode_gen strict f) (decode_gen strict f').
Proof.
  induction f as [|f IH]; intros f' Hle bs r H; [discriminate|].
  destruct f' as [|f']; [lia|]. rewrite decode_gen_S in *.
  apply (step_mono (decode_gen strict f) (decode_gen strict f')); [apply IH; lia | exact H].
Qed.
Print Assumptions decode_gen_fuel_mono.

Theorem decode_fuel_mono f f' bs r : (f <= f')%nat -> decode f bs = Some r -> decode f' bs = Some r.
Proof. intros Hle. apply (decode_gen_fuel_mono false f f' Hle). Qed.
Print Assumptions decode_fuel_mono.

Theorem decode_strict_fuel_mono f f' bs r :
  (f <= f')%nat -> decode_strict f bs = Some r -> decode_strict f' bs = Some r.
Proof. intros Hle. apply (decode_gen_fuel_mono true f f' Hle). Qed.
Print Assumptions decode_strict_fuel_mono.

Theorem decode_fuel_indep f f' bs r r' : decode f bs = Some r -> decode f' bs = Some r' -> r = r'.
Proof.
  intros H H'.
  apply (decode_fuel_mono f (Nat.max f f')) in H; [|lia].
  apply (decode_fuel_mono f' (Nat.max f f')) in H'; [|lia].
  rewrite H in H'. injection H' as ->. reflexivity.
Qed.
Print Assumptions decode_fuel_indep.

Theorem decode_strict_decode : forall f bs r, decode_strict f bs = Some r -> decode f bs = Some r.
Proof.
  unfold decode_strict, decode. induction f as [|f IH]; intros bs r H; [discriminate|].
  rewrite decode_gen_S in *. apply (step_strict_sub (decode_gen true f) (decode_gen false f)); [exact IH|exact H].
Qed.
Print Assumptions decode_strict_decode.

Theorem decode_seq_fuel_mono f f' bs l : (f <= f')%nat -> decode_seq f bs = Some l -> decode_seq f' bs = Some l.
Proof.
  intros Hle. unfold decode_seq. apply dec_seq_mono. intros b r. apply decode_fuel_mono. exact Hle.
Qed.
Print Assumptions decode_seq_fuel_mono.

(** "canonical input": the strict decoder accepts it (with some fuel). Then
    whatever the permissive decoder returns re-encodes to the input. *)
Definition canonical (bs : bytes) : Prop := exists fuel r, decode_strict fuel bs = Some r.

Theorem canonical_decode_reencode bs fuel v rest :
  canonical bs -> decode fuel bs = Some (v, rest) -> bs = encode v ++ rest.
Proof.
  intros (f & r & Hs) Hd. pose proof (decode_strict_decode f bs r Hs) as Hd'.
  pose proof (decode_fuel_indep _ _ _ _ _ Hd Hd') as <-.
  apply (decode_strict_reencode f). exact Hs.
Qed.
Print Assumptions canonical_decode_reencode.

Theorem canonical_encode v rest : wf v -> canonical (encode v ++ rest).
Proof. intros Hwf. exists (depth v), (v, rest). apply decode_strict_encode; [exact Hwf|lia]. Qed.
Print Assumptions canonical_encode.

Lemma decode_head_wf bs m n c rest :
  wf_bytes bs -> decode_head bs = Some (m, n, c, rest) ->
  n < two64 /\ wf_bytes rest /\ (c = 1%nat -> n < 24) /\ (length rest < length bs)%nat.
Proof.
  intros Hwf. destruct bs as [|b tl]; [discriminate|]. unfold decode_head. cbv zeta.
  inversion Hwf as [|? ? Hb Htl]; subst.
  destruct (N.leb_spec 256 b) as [Hb'|Hb']; [discriminate|].
  destruct (N.ltb_spec (b mod 32) 24) as [Hi|Hi].
  { intros H. inversion H; subst. cbn [length]. repeat split; try assumption; lia. }
  destruct (info_width (b mod 32)) as [k|] eqn:Ek; [|discriminate].
  destruct (take_be k tl) as [[n' r]|] eqn:Et; [|discriminate].
  intros [= <- <- <- <-]. destruct (take_be_sound k tl n' r Htl Et) as (-> & Hu & Hr).
  destruct (info_width_Some _ _ Ek) as [_ Hk].
  repeat split.
  - apply (N.lt_le_trans _ _ _ Hu). change two64 with (256 ^ 8). apply N.pow_le_mono_r; lia.
  - exact Hr.
  - lia.
  - cbn [length]. rewrite app_length. lia.
Qed.

Lemma take_n_wf n bs s rest :
  wf_bytes bs -> take_n n bs = Some (s, rest) ->
  wf_bytes s /\ wf_bytes rest /\ (length rest <= length bs)%nat /\ N.of_nat (length s) = n.
Proof.
  intros Hwf H. apply take_n_inv in H as [-> Hn]. apply wf_bytes_app in Hwf as [Hs Hr].
  rewrite app_length. repeat split; try assumption. lia.
Qed.

Definition short_octets (bs : bytes) : Prop := wf_bytes bs /\ N.of_nat (length bs) < two64.

Section DecWf.
  Variable dec : bytes -> option (cbor * bytes).
  Hypothesis Hdec : forall bs v rest, short_octets bs -> dec bs = Some (v, rest) ->
    wf v /\ wf_bytes rest /\ (length rest < length bs)%nat.

  Lemma short_octets_shrink bs rest : short_octets bs -> wf_bytes rest -> (length rest <= length bs)%nat -> short_octets rest.
  Proof. intros [_ Hl] Hr Hle. split; [exact Hr|lia]. Qed.

  Lemma dec_items_wf : forall n bs l rest, short_octets bs -> dec_items dec n bs = Some (l, rest) ->
    Forall wf l /\ wf_bytes rest /\ (length l + length rest <= length bs)%nat /\ length l = n.
  Proof.
    induction n as [|n IH]; intros bs l rest Hg H; cbn [dec_items] in H.
    - inversion H; subst. destruct Hg as [Hw _]. cbn [length]. repeat split; [constructor|exact Hw|lia].
    - destruct (dec bs) as [[v r]|] eqn:E; [|discriminate].
      destruct (dec_items dec n r) as [[l' r']|] eqn:E2; [|discriminate].
      inversion H; subst. clear H.
      apply (Hdec _ _ _ Hg) in E as (Hv & Hr & Hlt).
      apply IH in E2 as (Hl & Hr' & Hlen & Hn); [|apply (short_octets_shrink bs); [exact Hg|exact Hr|lia]].
      cbn [length]. repeat split; [constructor; assumption|exact Hr'|lia|lia].
  Qed.

  Lemma dec_pairs_wf : forall n bs l rest, short_octets bs -> dec_pairs dec n bs = Some (l, rest) ->
    Forall (fun kv => wf (fst kv) /\ wf (snd kv)) l /\ wf_bytes rest /\
    (length l + length rest <= length bs)%nat /\ length l = n.
  Proof.
    induction n as [|n IH]; intros bs l rest Hg H; cbn [dec_pairs] in H.
    - inversion H; subst. destruct Hg as [Hw _]. cbn [length]. repeat split; [constructor|exact Hw|lia].
    - destruct (dec bs) as [[k r]|] eqn:E; [|discriminate].
      destruct (dec r) as [[w r1]|] eqn:E1; [|discriminate].
      destruct (dec_pairs dec n r1) as [[l' r']|] eqn:E2; [|discriminate].
      inversion H; subst. clear H.
      apply (Hdec _ _ _ Hg) in E as (Hk & Hr & Hlt).
      assert (Hg1 : short_octets r) by (apply (short_octets_shrink bs); [exact Hg|exact Hr|lia]).
      apply (Hdec _ _ _ Hg1) in E1 as (Hw & Hr1 & Hlt1).
      apply IH in E2 as (Hl & Hr' & Hlen & Hn); [|apply (short_octets_shrink bs); [exact Hg|exact Hr1|lia]].
      cbn [length]. repeat split; [constructor; [cbn [fst snd]; split; assumption|exact Hl]|exact Hr'|lia|lia].
  Qed.

  Lemma dec_until_break_wf : forall cnt bs l rest, short_octets bs -> dec_until_break dec cnt bs = Some (l, rest) ->
    Forall wf l /\ wf_bytes rest /\ (length l + length rest < length bs)%nat.
  Proof.
    induction cnt as [|cnt IH]; intros bs l rest Hg H; cbn [dec_until_break] in H; [discriminate|].
    destruct bs as [|b tl]; [discriminate|].
    destruct (b =? 255).
    - inversion H; subst. destruct Hg as [Hw _]. inversion Hw; subst. cbn [length].
      repeat split; [constructor|assumption|lia].
    - destruct (dec (b :: tl)) as [[v r]|] eqn:E; [|discriminate].
      destruct (dec_until_break dec cnt r) as [[l' r']|] eqn:E2; [|discriminate].
      inversion H; subst. clear H.
      apply (Hdec _ _ _ Hg) in E as (Hv & Hr & Hlt).
      apply IH in E2 as (Hl & Hr' & Hlen); [|apply (short_octets_shrink (b :: tl)); [exact Hg|exact Hr|lia]].
      cbn [length] in *. repeat split; [constructor; assumption|exact Hr'|lia].
  Qed.

  Lemma dec_seq_wf : forall cnt bs l, short_octets bs -> dec_seq dec cnt bs = Some l -> Forall wf l.
  Proof.
    induction cnt as [|cnt IH]; intros bs l Hg H; destruct bs as [|b tl]; cbn [dec_seq] in H;
      try discriminate; try (inversion H; subst; constructor).
    destruct (dec (b :: tl)) as [[v r]|] eqn:E; [|discriminate].
    destruct (dec_seq dec cnt r) as [l'|] eqn:E2; [|discriminate].
    inversion H; subst. clear H.
    apply (Hdec _ _ _ Hg) in E as (Hv & Hr & Hlt).
    apply IH in E2; [|apply (short_octets_shrink (b :: tl)); [exact Hg|exact Hr|lia]].
    constructor; assumption.
  Qed.

  Lemma step_wf strict bs v rest : short_octets bs -> step dec strict bs = Some (v, rest) ->
    wf v /\ wf_bytes rest /\ (length rest < length bs)%nat.
  Proof.
    intros Hg H. apply step_Some in H as [(_ & tl & l & -> & T & ->)|(m & n & c & r & Eh & _ & H)].
    - assert (Hgt : short_octets tl).
      { destruct Hg as [Hw Hl]. inversion Hw; subst. cbn [length] in Hl. split; [assumption|lia]. }
      apply (dec_until_break_wf _ _ _ _ Hgt) in T as (Hl & Hr & Hlen).
      destruct Hgt as [_ Hb]. cbn [length].
      split; [apply wf_CArr; split; [lia|exact Hl] | split; [exact Hr | lia]].
    - destruct (decode_head_wf _ _ _ _ _ (proj1 Hg) Eh) as (Hn & Hr & Hc & Hlt).
      assert (Hgr : short_octets r) by (apply (short_octets_shrink bs); [exact Hg|exact Hr|lia]).
      destruct H as [ | |s r' T|s r' T|l r' _ T|l r' _ T|w r' T|Hc1].
      1, 2: repeat split; assumption.
      1, 2: apply (take_n_wf _ _ _ _ Hr) in T as (Hs & Hr' & Hle & Hlen);
        cbn [wf]; rewrite Hlen; repeat split; try assumption; lia.
      + apply (dec_items_wf _ _ _ _ Hgr) in T as (Hl & Hr' & Hle & Hlen).
        split; [apply wf_CArr; split; [lia|exact Hl] | split; [exact Hr' | lia]].
      + apply (dec_pairs_wf _ _ _ _ Hgr) in T as (Hl & Hr' & Hle & Hlen).
        split; [apply wf_CMap; split; [lia|exact Hl] | split; [exact Hr' | lia]].
      + apply (Hdec _ _ _ Hgr) in T as (Hw & Hr' & Hlt').
        split; [apply wf_CTag; split; assumption | split; [exact Hr' | lia]].
      + cbn [wf]. split; [apply Hc, Hc1 | split; [exact Hr | exact Hlt]].
  Qed.
End DecWf.

(** The bound on the buffer, which holds of every real one, is what bounds
    the item count of an indefinite-length array as [wf] asks. *)
Theorem decode_gen_wf strict : forall fuel bs v rest,
  wf_bytes bs -> N.of_nat (length bs) < two64 ->
  decode_gen strict fuel bs = Some (v, rest) ->
  wf v /\ wf_bytes rest /\ (length rest < length bs)%nat.
Proof.
  induction fuel as [|f IH]; intros bs v rest Hw Hl H; [discriminate|].
  rewrite decode_gen_S in H. apply (step_wf (decode_gen strict f)) in H; [exact H| |split; assumption].
  intros bs' v' rest' [Hw' Hl'] H'. apply IH; assumption.
Qed.
Print Assumptions decode_gen_wf.

Theorem decode_wf fuel bs v rest :
  wf_bytes bs -> N.of_nat (length bs) < two64 -> decode fuel bs = Some (v, rest) ->
  wf v /\ wf_bytes rest /\ (length rest < length bs)%nat.
Proof. apply decode_gen_wf. Qed.
Print Assumptions decode_wf.

Theorem decode_seq_wf fuel bs l :
  wf_bytes bs -> N.of_nat (length bs) < two64 -> decode_seq fuel bs = Some l -> Forall wf l.
Proof.
  intros Hw Hl. unfold decode_seq. apply dec_seq_wf; [|split; assumption].
  intros bs' v' rest' [Hw' Hl'] H'. apply (decode_wf fuel); assumption.
Qed.
Print Assumptions decode_seq_wf.

Theorem decode_strict_roundtrip fuel bs v rest :
  wf_bytes bs -> N.of_nat (length bs) < two64 -> decode_strict fuel bs = Some (v, rest) ->
  wf v /\ bs = encode v ++ rest.
Proof.
  intros Hw Hl H. split; [|apply (decode_strict_reencode fuel); exact H].
  apply (decode_gen_wf true fuel bs v rest Hw Hl H).
Qed.
Print Assumptions decode_strict_roundtrip.

Example decode_wf_nonvacuous :
  let bs := encode_indef_arr [sample; CUint 7] ++ [9] in
  wf_bytes bs /\ N.of_nat (length bs) < two64 /\ decode 4 bs = Some (CArr [sample; CUint 7], [9]).
Proof. split; [apply wf_bytesb_spec; vm_compute; reflexivity | split; vm_compute; reflexivity]. Qed.
