(** CRC-16/X.25 and CRC-32C (Castagnoli) as used by BPv7 blocks (RFC 9171 4.2.1).

    Two layers and the vocabulary of the burst theorem ([is_burst],
    [burst_apart]) are defined here; theorems are in [Lib/CrcProofs.v]:

    1. The *executable* model [crc16_x25], [crc32c] : [bytes -> N].  A bit-serial
       reflected shift register over [N], exactly the loop
         [crc := if (crc xor bit) odd then (crc >> 1) xor POLY_REFLECTED else crc >> 1]
       fed with the bits of every octet LSB first, register preset to all ones,
       final value xored with all ones.  This is what
       [crcmod.predefined.mkPredefinedCrcFun('x-25' | 'crc-32c')] computes (the
       table-driven harness stand-in [harness/stubs/crcmod/predefined.py] is the
       octet-at-a-time unrolling of the same loop).

    2. An independent *specification*: the CRC as a remainder of polynomial
       long division over GF(2), generic in the generator [g] (a bit list,
       highest-degree coefficient first, degree [w = length g - 1]):
         message bits (LSB first per octet) ++ w zeros      (multiply by x^w)
         xor the first w bits with ones                     (init = all ones)
         remainder modulo g                                 ([pmod])
         xor with ones                                      (xorout = all ones)
         read with the x^(w-1) coefficient as bit 0         (reflected output)

    [CrcProofs.v] proves that the two layers agree on every octet string, that
    [pmod] is linear, and the burst-error detection theorem. *)
From Coq Require Import List NArith Bool.
From DTN Require Import Lib.Bytes.
Import ListNotations.
Local Open Scope N_scope.

(** * 1. Executable model *)

(** One register step for one message bit [b]. *)
Definition crc_bit (poly crc : N) (b : bool) : N :=
  let s := N.shiftr crc 1 in
  if xorb (N.odd crc) b then N.lxor s poly else s.

(** The eight bits of an octet, least significant first. *)
Definition octet_bits (x : N) : list bool :=
  map (N.testbit x) [0; 1; 2; 3; 4; 5; 6; 7].

Definition crc_octet (poly crc x : N) : N :=
  fold_left (crc_bit poly) (octet_bits x) crc.

(** [poly] is the reflected generator (without the x^w term), [init] the register
    preset, [xorout] the final xor. *)
Definition crc_run (poly init xorout : N) (bs : bytes) : N :=
  N.lxor (fold_left (crc_octet poly) bs init) xorout.

Definition crc16_x25 (bs : bytes) : N := crc_run 0x8408 0xFFFF 0xFFFF bs.
Definition crc32c (bs : bytes) : N := crc_run 0x82F63B78 0xFFFFFFFF 0xFFFFFFFF bs.

(** The CRC field contents: big-endian, 2 resp. 4 octets. *)
Definition crc16_x25_field (bs : bytes) : bytes := be 2 (crc16_x25 bs).
Definition crc32c_field (bs : bytes) : bytes := be 4 (crc32c bs).

(** Catalogue check values on "123456789" and the empty string. *)
Example crc16_x25_check : crc16_x25 [49;50;51;52;53;54;55;56;57] = 0x906E.
Proof. vm_compute; reflexivity. Qed.
Example crc32c_check : crc32c [49;50;51;52;53;54;55;56;57] = 0xE3069283.
Proof. vm_compute; reflexivity. Qed.
Example crc16_x25_empty : crc16_x25 [] = 0.
Proof. vm_compute; reflexivity. Qed.
Example crc32c_empty : crc32c [] = 0.
Proof. vm_compute; reflexivity. Qed.

(** Vectors obtained from [harness/stubs/crcmod/predefined.py]
    ([f('x-25')(x)], [f('crc-32c')(x)]). *)
Definition range_bytes (n : nat) : bytes := map N.of_nat (seq 0 n).
Definition affine_bytes (n : nat) : bytes :=
  map (fun i => (N.of_nat i * 37 + 11) mod 256) (seq 0 n).

(* bytes(range(20)) *)
Example crc16_x25_v1 : crc16_x25 (range_bytes 20) = 17173.
Proof. vm_compute; reflexivity. Qed.
Example crc32c_v1 : crc32c (range_bytes 20) = 3430542310.
Proof. vm_compute; reflexivity. Qed.
(* bytes([0]) *)
Example crc16_x25_v2 : crc16_x25 [0] = 61560.
Proof. vm_compute; reflexivity. Qed.
Example crc32c_v2 : crc32c [0] = 1383945041.
Proof. vm_compute; reflexivity. Qed.
(* bytes([255]*7) *)
Example crc16_x25_v3 : crc16_x25 (repeat 255 7) = 63804.
Proof. vm_compute; reflexivity. Qed.
Example crc32c_v3 : crc32c (repeat 255 7) = 1617208197.
Proof. vm_compute; reflexivity. Qed.

(** * 2. Polynomial specification over GF(2) *)

(** A polynomial is the list of its coefficients, highest degree first (the
    order in which message bits enter the divider).  Leading zeros are allowed. *)
Definition poly := list bool.

Definition zeros (n : nat) : poly := repeat false n.
Definition ones (n : nat) : poly := repeat true n.

(** Coefficient-wise sum (xor).  The result has the length of [a]; a shorter [b]
    is treated as if extended by zeros at the low end, a longer one is cut.  All
    uses in the theorems are on equal-length lists. *)
Fixpoint xorl (a b : poly) : poly :=
  match a with
  | [] => []
  | x :: a' => match b with
               | [] => a
               | y :: b' => xorb x y :: xorl a' b'
               end
  end.

(** [xor_prefix a l]: add [a] into the leading [length a] coefficients of [l];
    the same list as [xorl l a] ([CrcProofs.xor_prefix_xorl]). *)
Fixpoint xor_prefix (a l : poly) : poly :=
  match a, l with
  | x :: a', y :: l' => xorb x y :: xor_prefix a' l'
  | _, _ => l
  end.

(** One step of schoolbook long division by the monic generator x^w + [glow]
    ([glow] = the [w] low coefficients).  The running remainder [r] has [w]
    coefficients; bring down the next dividend coefficient [b] (r*x + b) and, if
    a term x^w appeared, subtract the generator. *)
Definition pstep (glow r : poly) (b : bool) : poly :=
  match r with
  | [] => []
  | top :: rest => if top then xorl (rest ++ [b]) glow else rest ++ [b]
  end.

(** [pmod m g]: remainder of [m] modulo the monic [g] (head of [g] is its
    leading coefficient, taken to be 1), as a list of exactly [length g - 1]
    coefficients.  Structural (left fold) over the dividend. *)
Definition pmod (m g : poly) : poly :=
  match g with
  | [] => []
  | _ :: glow => fold_left (pstep glow) m (zeros (length glow))
  end.

(** The number whose bit [i] is the [i]-th element of the list (head = bit 0).
    Applied to a remainder (highest degree first) this is the "reflected"
    register read-out. *)
Fixpoint of_bits (l : list bool) : N :=
  match l with
  | [] => 0
  | b :: l' => if b then N.succ_double (of_bits l') else N.double (of_bits l')
  end.

(** Message bit stream of an octet string: LSB first within each octet. *)
Definition bits_of_bytes (bs : bytes) : list bool := flat_map octet_bits bs.

(** CRC of a bit stream with all-ones init and xorout, as a coefficient list. *)
Definition crc_spec_bits (g : poly) (msg : list bool) : poly :=
  let w := (length g - 1)%nat in
  xorl (pmod (xor_prefix (ones w) (msg ++ zeros w)) g) (ones w).

Definition crc_spec (g : poly) (bs : bytes) : N :=
  of_bits (crc_spec_bits g (bits_of_bytes bs)).

(** The [len] low bits of [n], most significant first. *)
Definition poly_of_N (len : nat) (n : N) : poly :=
  rev (map (fun i => N.testbit n (N.of_nat i)) (seq 0 len)).

(** x^16 + x^12 + x^5 + 1 *)
Definition g_x25 : poly := poly_of_N 17 0x11021.
(** x^32 + x^28 + x^27 + x^26 + x^25 + x^23 + x^22 + x^20 + x^19 + x^18 + x^14
    + x^13 + x^11 + x^10 + x^9 + x^8 + x^6 + 1 *)
Definition g_32c : poly := poly_of_N 33 0x11EDC6F41.

Definition crc_spec_x25 (bs : bytes) : N := crc_spec g_x25 bs.
Definition crc_spec_32c (bs : bytes) : N := crc_spec g_32c bs.

Example g_x25_terms :
  map (fun i => nth (16 - i) g_x25 false) [16; 12; 5; 0]%nat = [true; true; true; true]
  /\ length (filter (fun b => b) g_x25) = 4%nat /\ length g_x25 = 17%nat.
Proof. vm_compute. auto. Qed.
Example g_32c_terms :
  map (fun i => nth (32 - i) g_32c false)
      [32; 28; 27; 26; 25; 23; 22; 20; 19; 18; 14; 13; 11; 10; 9; 8; 6; 0]%nat
  = repeat true 18
  /\ length (filter (fun b => b) g_32c) = 18%nat /\ length g_32c = 33%nat.
Proof. vm_compute. auto. Qed.

(** The specification on the same vectors (independent of section 1). *)
Example crc_spec_x25_check : crc_spec_x25 [49;50;51;52;53;54;55;56;57] = 0x906E.
Proof. vm_compute; reflexivity. Qed.
Example crc_spec_32c_check : crc_spec_32c [49;50;51;52;53;54;55;56;57] = 0xE3069283.
Proof. vm_compute; reflexivity. Qed.
Example crc_spec_x25_empty : crc_spec_x25 [] = 0.
Proof. vm_compute; reflexivity. Qed.
Example crc_spec_32c_empty : crc_spec_32c [] = 0.
Proof. vm_compute; reflexivity. Qed.
Example crc_spec_x25_v1 : crc_spec_x25 (range_bytes 20) = 17173.
Proof. vm_compute; reflexivity. Qed.
Example crc_spec_32c_v1 : crc_spec_32c (range_bytes 20) = 3430542310.
Proof. vm_compute; reflexivity. Qed.
Example crc_spec_x25_v2 : crc_spec_x25 [0] = 61560.
Proof. vm_compute; reflexivity. Qed.
Example crc_spec_32c_v2 : crc_spec_32c [0] = 1383945041.
Proof. vm_compute; reflexivity. Qed.
Example crc_spec_x25_v3 : crc_spec_x25 (repeat 255 7) = 63804.
Proof. vm_compute; reflexivity. Qed.
Example crc_spec_32c_v3 : crc_spec_32c (repeat 255 7) = 1617208197.
Proof. vm_compute; reflexivity. Qed.

(** [bytes((i*37+11)%256 for i in range(300))]: one statement for the four
    functions, the vector under a [let], so that the kernel evaluates it once
    and shares it between them. *)
Lemma affine_300_crcs : let m := affine_bytes 300 in
  crc16_x25 m = 1033 /\ crc32c m = 3693503159 /\ crc_spec_x25 m = 1033 /\ crc_spec_32c m = 3693503159.
Proof. vm_compute. repeat split. Qed.
Example crc16_x25_v4 : crc16_x25 (affine_bytes 300) = 1033.
Proof. exact (proj1 affine_300_crcs). Qed.
Example crc32c_v4 : crc32c (affine_bytes 300) = 3693503159.
Proof. exact (proj1 (proj2 affine_300_crcs)). Qed.
Example crc_spec_x25_v4 : crc_spec_x25 (affine_bytes 300) = 1033.
Proof. exact (proj1 (proj2 (proj2 affine_300_crcs))). Qed.
Example crc_spec_32c_v4 : crc_spec_32c (affine_bytes 300) = 3693503159.
Proof. exact (proj2 (proj2 (proj2 affine_300_crcs))). Qed.

(** * 3. Vocabulary for the burst theorem *)

(** [e] is a burst of span at most [w]: zero outside a window of at most [w]
    consecutive positions, and not zero inside it. *)
Definition is_burst (w : nat) (e : list bool) : Prop :=
  exists i b j, e = zeros i ++ b ++ zeros j /\ (length b <= w)%nat /\ In true b.

(** Octet strings [m], [m'] of equal length differ by a burst of span <= [w]
    bits (bit order as transmitted into the CRC: LSB first per octet). *)
Definition burst_apart (w : nat) (m m' : bytes) : Prop :=
  length m = length m' /\ is_burst w (xorl (bits_of_bytes m) (bits_of_bytes m')).
