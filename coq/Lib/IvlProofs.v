(** Theorems about the interval-set model Lib/Ivl.v: [add] keeps normal form
    and is pointwise union, normal forms are unique (so the code's
    [valid == total_valid] is a coverage test), order/duplication independence
    of a sequence of additions, and the udpcl range encoding round trip.
    Concrete [Example]s pin [add] to harness/stubs/portion.py. *)
From Coq Require Import NArith List Bool Lia ZifyBool Permutation.
From DTN Require Import Lib.Ivl.
Import ListNotations.
Local Open Scope N_scope.

(* [lia] without case analysis on Boolean subterms ([mem], [inrange] stay opaque) and, there being no division here,
   without the div/mod step.  The setting holds in every file that requires this one, until a file required later sets it
   again: Proofs/BpReasmProofs.v works under it and sets none. *)
Ltac Zify.zify_post_hook ::= idtac.

Lemma normfromb_spec s : forall b, normfromb b s = true <-> normfrom b s.
Proof.
  induction s as [|[lo hi] r IH]; intros b; cbn [normfromb normfrom].
  - tauto.
  - rewrite !andb_true_iff, IH, N.leb_le, N.ltb_lt. tauto.
Qed.

Lemma normb_spec s : normb s = true <-> norm s.
Proof. apply normfromb_spec. Qed.

Ltac norm_by_compute := apply normb_spec; vm_compute; reflexivity.

Lemma normfrom_weaken s : forall b b', normfrom b s -> b' <= b -> normfrom b' s.
Proof.
  destruct s as [|[lo hi] r]; cbn [normfrom]; intros; [exact I|].
  intuition lia.
Qed.

Lemma normfrom_norm b s : normfrom b s -> norm s.
Proof. intros H. apply (normfrom_weaken s b 0 H). lia. Qed.

Lemma norm_tail lo hi r : norm ((lo, hi) :: r) -> norm r.
Proof. cbn [norm normfrom]. intros (_ & _ & H). exact (normfrom_norm _ _ H). Qed.

Lemma norm_empty : norm empty.
Proof. exact I. Qed.

Lemma norm_full total : norm (full total).
Proof.
  unfold full. destruct (total =? 0) eqn:E; cbn [norm normfrom]; [exact I|]. lia.
Qed.

Lemma norm_singleton x : norm (singleton x).
Proof. cbn. lia. Qed.

Lemma norm_closed a b : a <= b -> norm (closed a b).
Proof. cbn. lia. Qed.

Lemma inrange_spec lo hi x : inrange lo hi x = true <-> lo <= x < hi.
Proof. unfold inrange. lia. Qed.

Lemma mem_existsb x s : mem x s = existsb (fun p => (fst p <=? x) && (x <? snd p)) s.
Proof.
  induction s as [|[lo hi] r IH]; cbn [mem existsb fst snd]; [reflexivity|].
  rewrite IH. reflexivity.
Qed.

Lemma mem_app x a b : mem x (a ++ b) = mem x a || mem x b.
Proof.
  induction a as [|[lo hi] r IH]; cbn [mem app]; [reflexivity|].
  rewrite IH, orb_assoc. reflexivity.
Qed.

Lemma mem_below s : forall b x, normfrom b s -> x < b -> mem x s = false.
Proof.
  induction s as [|[lo hi] r IH]; intros b x Hn Hx; cbn [mem]; [reflexivity|].
  cbn [normfrom] in Hn. destruct Hn as (H1 & H2 & H3).
  rewrite (IH (hi + 1) x H3) by lia. unfold inrange. lia.
Qed.

Lemma mem_full x total : mem x (full total) = (x <? total).
Proof.
  unfold full. destruct (total =? 0) eqn:E; cbn [mem]; unfold inrange; lia.
Qed.

Lemma mem_singleton x y : mem x (singleton y) = (x =? y).
Proof. cbn [singleton mem]. unfold inrange. lia. Qed.

Lemma mem_closed x a b : mem x (closed a b) = (a <=? x) && (x <=? b).
Proof. cbn [closed mem]. unfold inrange. lia. Qed.

Lemma mem_ins x s : forall lo hi,
  mem x (ins lo hi s) = mem x s || inrange lo hi x.
Proof.
  induction s as [|[lo' hi'] r IH]; intros lo hi; cbn [ins mem].
  - rewrite orb_false_r. reflexivity.
  - destruct (hi <? lo') eqn:E1; [|destruct (hi' <? lo) eqn:E2].
    + cbn [mem]. apply orb_comm.
    + cbn [mem]. rewrite IH. apply orb_assoc.
    + rewrite IH.
      assert (Hr : inrange (N.min lo lo') (N.max hi hi') x
                   = inrange lo hi x || inrange lo' hi' x) by (unfold inrange; lia).
      rewrite Hr.
      destruct (inrange lo hi x), (inrange lo' hi' x), (mem x r); reflexivity.
Qed.

Lemma mem_add_any x lo hi s :
  mem x (add lo hi s) = mem x s || ((lo <=? x) && (x <? hi)).
Proof.
  unfold add. destruct (hi <=? lo) eqn:E.
  - assert (H : (lo <=? x) && (x <? hi) = false) by lia.
    rewrite H, orb_false_r. reflexivity.
  - rewrite mem_ins. reflexivity.
Qed.

Theorem mem_add x lo hi s :
  norm s -> mem x (add lo hi s) = mem x s || ((lo <=? x) && (x <? hi)).
Proof. intros _. apply mem_add_any. Qed.
Print Assumptions mem_add.

Example mem_add_nonvacuous : norm [(0, 5); (7, 9)].
Proof. norm_by_compute. Qed.

Lemma ins_normfrom s : forall b lo hi,
  normfrom b s -> b <= lo -> lo < hi -> normfrom b (ins lo hi s).
Proof.
  induction s as [|[lo' hi'] r IH]; intros b lo hi Hn Hb Hlt; cbn [ins].
  - cbn [normfrom]. lia.
  - cbn [normfrom] in Hn. destruct Hn as (H1 & H2 & H3).
    destruct (hi <? lo') eqn:E1; [|destruct (hi' <? lo) eqn:E2].
    + cbn [normfrom]. repeat split; try lia. exact H3.
    + cbn [normfrom]. repeat split; try lia. apply IH; [exact H3| lia | lia].
    + apply IH; [|lia|lia]. apply (normfrom_weaken r (hi' + 1) b H3). lia.
Qed.

Lemma add_normfrom b lo hi s :
  normfrom b s -> b <= lo -> normfrom b (add lo hi s).
Proof.
  intros Hn Hb. unfold add. destruct (hi <=? lo) eqn:E; [exact Hn|].
  apply ins_normfrom; [exact Hn | exact Hb | lia].
Qed.

Theorem add_norm lo hi s : norm s -> norm (add lo hi s).
Proof. intros Hn. apply add_normfrom; [exact Hn | lia]. Qed.
Print Assumptions add_norm.

Lemma norm_closedopen lo hi : norm (closedopen lo hi).
Proof. apply add_norm. exact I. Qed.

Lemma mem_closedopen x lo hi : mem x (closedopen lo hi) = (lo <=? x) && (x <? hi).
Proof. unfold closedopen. rewrite mem_add_any. reflexivity. Qed.

(** the first interval of a normal form is bounded by the other's: used both ways round below *)
Lemma head_bounds l1 h1 r1 l2 h2 r2 ba bb :
  normfrom ba ((l1, h1) :: r1) -> normfrom bb ((l2, h2) :: r2) ->
  (forall x, mem x ((l1, h1) :: r1) = mem x ((l2, h2) :: r2)) ->
  l2 <= l1 /\ (l1 = l2 -> h2 <= h1).
Proof.
  cbn [normfrom]. intros (A1 & A2 & A3) (B1 & B2 & B3) Hx.
  pose proof (Hx l1) as X1. pose proof (Hx h1) as X2. cbn [mem] in X1, X2. unfold inrange in X1, X2. split.
  - destruct (l1 <? l2) eqn:C; [|lia]. rewrite (mem_below r2 (h2 + 1) l1 B3) in X1 by lia. lia.
  - intros <-. destruct (h1 <? h2) eqn:C; [|lia]. rewrite (mem_below r1 (h1 + 1) h1 A3) in X2 by lia. lia.
Qed.

Lemma norm_ext_from a : forall b ba bb,
  normfrom ba a -> normfrom bb b -> (forall x, mem x a = mem x b) -> a = b.
Proof.
  induction a as [|[l1 h1] r1 IH]; intros [|[l2 h2] r2] ba bb Ha Hb Hx.
  - reflexivity.
  - exfalso. specialize (Hx l2). cbn [mem normfrom] in *. unfold inrange in Hx. lia.
  - exfalso. specialize (Hx l1). cbn [mem normfrom] in *. unfold inrange in Hx. lia.
  - destruct (head_bounds _ _ _ _ _ _ _ _ Ha Hb Hx) as [L1 U1].
    destruct (head_bounds _ _ _ _ _ _ _ _ Hb Ha (fun x => eq_sym (Hx x))) as [L2 U2].
    assert (l1 = l2) by lia. subst l2. assert (h1 = h2) by (specialize (U1 eq_refl); specialize (U2 eq_refl); lia). subst h2.
    destruct Ha as (_ & _ & A3). destruct Hb as (_ & _ & B3).
    f_equal. apply (IH r2 (h1 + 1) (h1 + 1) A3 B3).
    intros x. destruct (x <? h1 + 1) eqn:C.
    + rewrite (mem_below r1 (h1 + 1) x A3), (mem_below r2 (h1 + 1) x B3) by lia. reflexivity.
    + specialize (Hx x). cbn [mem] in Hx. unfold inrange in Hx.
      assert (F : (l1 <=? x) && (x <? h1) = false) by lia.
      rewrite F in Hx. exact Hx.
Qed.

Theorem norm_ext a b :
  norm a -> norm b -> (forall x, mem x a = mem x b) -> a = b.
Proof. intros Ha Hb. exact (norm_ext_from a b 0 0 Ha Hb). Qed.
Print Assumptions norm_ext.

Example norm_ext_nonvacuous :
  norm (add 4 8 (add 7 9 (add 0 5 []))) /\ norm [(0, 9)]
  /\ add 4 8 (add 7 9 (add 0 5 [])) = [(0, 9)].
Proof. split; [norm_by_compute | split; [norm_by_compute | vm_compute; reflexivity]]. Qed.

Lemma eqb_eq a : forall b, eqb a b = true <-> a = b.
Proof.
  induction a as [|[l1 h1] r1 IH]; intros [|[l2 h2] r2]; cbn [eqb];
    try (split; [discriminate|discriminate]); [tauto|].
  rewrite !andb_true_iff, IH. split.
  - intros ((E1 & E2) & E3). f_equal; [f_equal; lia | exact E3].
  - intros E. injection E as -> -> ->. repeat split; lia.
Qed.

Lemma eqb_refl a : eqb a a = true.
Proof. apply eqb_eq. reflexivity. Qed.

Theorem complete_iff s total :
  norm s -> (eqb s (full total) = true <-> forall x, mem x s = (x <? total)).
Proof.
  intros Hn. split.
  - intros E x. apply eqb_eq in E. subst s. apply mem_full.
  - intros H. apply eqb_eq. apply norm_ext; [exact Hn | apply norm_full |].
    intros x. rewrite mem_full. apply H.
Qed.
Print Assumptions complete_iff.

Theorem complete_intro s total :
  norm s ->
  (forall x, x < total -> mem x s = true) ->
  (forall x, mem x s = true -> x < total) ->
  s = full total.
Proof.
  intros Hn Hcov Hbnd. apply eqb_eq. apply complete_iff; [exact Hn|].
  intros x. destruct (x <? total) eqn:C.
  - apply Hcov. lia.
  - destruct (mem x s) eqn:M; [|reflexivity].
    apply Hbnd in M. lia.
Qed.
Print Assumptions complete_intro.

Theorem incomplete_neq s total x :
  x < total -> mem x s = false -> eqb s (full total) = false.
Proof.
  intros Hx Hm. destruct (eqb s (full total)) eqn:E; [|reflexivity].
  apply eqb_eq in E. subst s. rewrite mem_full in Hm. lia.
Qed.
Print Assumptions incomplete_neq.

Example complete_nonvacuous :
  let s := add 3 10 (add 0 4 []) in
  norm s /\ eqb s (full 10) = true /\ eqb (add 5 10 (add 0 4 [])) (full 10) = false.
Proof. split; [norm_by_compute | vm_compute; split; reflexivity]. Qed.

Lemma add_all_norm ps : forall s, norm s -> norm (add_all ps s).
Proof.
  unfold add_all. induction ps as [|p ps IH]; intros s Hn; cbn [fold_left]; [exact Hn|].
  apply IH. apply add_norm. exact Hn.
Qed.

Lemma add_all_mem x ps : forall s,
  mem x (add_all ps s)
  = mem x s || existsb (fun p => (fst p <=? x) && (x <? snd p)) ps.
Proof.
  unfold add_all. induction ps as [|p ps IH]; intros s; cbn [fold_left existsb].
  - rewrite orb_false_r. reflexivity.
  - rewrite IH. unfold add_piece. rewrite mem_add_any, orb_assoc. reflexivity.
Qed.

Theorem fold_add_mem x (ps : list (N * N)) :
  mem x (fold_left (fun s p => add (fst p) (snd p) s) ps [])
  = existsb (fun p => (fst p <=? x) && (x <? snd p)) ps.
Proof. exact (add_all_mem x ps []). Qed.
Print Assumptions fold_add_mem.

Theorem fold_add_norm (ps : list (N * N)) :
  norm (fold_left (fun s p => add (fst p) (snd p) s) ps []).
Proof. exact (add_all_norm ps [] I). Qed.
Print Assumptions fold_add_norm.

Lemma existsb_perm {A} (f : A -> bool) l l' :
  Permutation l l' -> existsb f l = existsb f l'.
Proof.
  induction 1; cbn [existsb].
  - reflexivity.
  - rewrite IHPermutation. reflexivity.
  - destruct (f x), (f y); reflexivity.
  - rewrite IHPermutation1. exact IHPermutation2.
Qed.

Lemma existsb_incl {A} (f : A -> bool) l l' : incl l l' -> existsb f l = true -> existsb f l' = true.
Proof. rewrite !existsb_exists. intros H (x & Hin & Hx). exists x. auto. Qed.

Theorem add_all_ext ps qs s :
  norm s ->
  (forall x, existsb (fun p => (fst p <=? x) && (x <? snd p)) ps
             = existsb (fun p => (fst p <=? x) && (x <? snd p)) qs) ->
  add_all ps s = add_all qs s.
Proof.
  intros Hn H. apply norm_ext; try (apply add_all_norm; exact Hn).
  intros x. rewrite !add_all_mem, H. reflexivity.
Qed.
Print Assumptions add_all_ext.

Theorem add_all_perm ps qs s :
  norm s -> Permutation ps qs -> add_all ps s = add_all qs s.
Proof.
  intros Hn HP. apply add_all_ext; [exact Hn|]. intros x. apply existsb_perm. exact HP.
Qed.
Print Assumptions add_all_perm.

Theorem fold_add_perm (ps qs : list (N * N)) :
  Permutation ps qs ->
  fold_left (fun s p => add (fst p) (snd p) s) ps []
  = fold_left (fun s p => add (fst p) (snd p) s) qs [].
Proof. exact (add_all_perm ps qs [] I). Qed.
Print Assumptions fold_add_perm.

Theorem fold_add_dup (ps : list (N * N)) :
  fold_left (fun s p => add (fst p) (snd p) s) (ps ++ ps) []
  = fold_left (fun s p => add (fst p) (snd p) s) ps [].
Proof.
  apply (add_all_ext (ps ++ ps) ps [] I). intros x.
  rewrite existsb_app. apply orb_diag.
Qed.
Print Assumptions fold_add_dup.

Theorem fold_add_incl (ps qs : list (N * N)) :
  incl ps qs -> incl qs ps ->
  fold_left (fun s p => add (fst p) (snd p) s) ps []
  = fold_left (fun s p => add (fst p) (snd p) s) qs [].
Proof.
  intros H1 H2. apply (add_all_ext ps qs [] I). intros x.
  apply eq_true_iff_eq. split; apply existsb_incl; assumption.
Qed.
Print Assumptions fold_add_incl.

Example fold_add_perm_nonvacuous :
  Permutation [(0, 5); (7, 9); (4, 8)] [(4, 8); (0, 5); (7, 9)]
  /\ fold_left (fun s p => add (fst p) (snd p) s) [(4, 8); (0, 5); (7, 9)] [] = [(0, 9)].
Proof.
  split; [|vm_compute; reflexivity].
  apply Permutation_sym. apply (Permutation_cons_app [(0, 5); (7, 9)] [] (4, 8)).
  apply Permutation_refl.
Qed.

Theorem add_comm l1 h1 l2 h2 s :
  norm s -> add l1 h1 (add l2 h2 s) = add l2 h2 (add l1 h1 s).
Proof.
  intros Hn. apply norm_ext; try (apply add_norm, add_norm; exact Hn).
  intros x. rewrite !mem_add_any.
  destruct (mem x s), ((l1 <=? x) && (x <? h1)), ((l2 <=? x) && (x <? h2)); reflexivity.
Qed.
Print Assumptions add_comm.

Theorem add_covered lo hi s :
  norm s -> (forall x, lo <= x < hi -> mem x s = true) -> add lo hi s = s.
Proof.
  intros Hn Hc. apply norm_ext; [apply add_norm; exact Hn | exact Hn |].
  intros x. rewrite mem_add_any.
  destruct ((lo <=? x) && (x <? hi)) eqn:E.
  - rewrite Hc by lia. reflexivity.
  - apply orb_false_r.
Qed.
Print Assumptions add_covered.

Theorem add_idem lo hi s : norm s -> add lo hi (add lo hi s) = add lo hi s.
Proof.
  intros Hn. apply add_covered; [apply add_norm; exact Hn|].
  intros x Hx. rewrite mem_add_any.
  assert (E : (lo <=? x) && (x <? hi) = true) by lia.
  rewrite E. apply orb_true_r.
Qed.
Print Assumptions add_idem.

Lemma union_norm a b : norm a -> norm (union a b).
Proof. intros Hn. apply add_all_norm. exact Hn. Qed.

Lemma mem_union x a b : mem x (union a b) = mem x a || mem x b.
Proof. unfold union. rewrite add_all_mem, <- mem_existsb. reflexivity. Qed.

Theorem union_comm a b : norm a -> norm b -> union a b = union b a.
Proof.
  intros Ha Hb. apply norm_ext; try (apply union_norm; assumption).
  intros x. rewrite !mem_union. apply orb_comm.
Qed.
Print Assumptions union_comm.

Lemma normalize_norm ps : norm (normalize ps).
Proof. exact (add_all_norm ps [] I). Qed.

Theorem normalize_id s : norm s -> normalize s = s.
Proof.
  intros Hn. apply norm_ext; [apply normalize_norm | exact Hn |].
  intros x. unfold normalize. rewrite add_all_mem, <- mem_existsb. reflexivity.
Qed.
Print Assumptions normalize_id.

Lemma ins_append b lo hi acc :
  b <= lo -> lo < hi ->
  Forall (fun p => fst p < snd p /\ snd p < b) acc ->
  ins lo hi acc = acc ++ [(lo, hi)].
Proof.
  intros Hb Hlt. induction 1 as [|[lo' hi'] r Hh _ IH]; cbn [ins app]; [reflexivity|].
  cbn [fst snd] in Hh.
  destruct (hi <? lo') eqn:E1; [lia|].
  destruct (hi' <? lo) eqn:E2; [|lia].
  rewrite IH. reflexivity.
Qed.

Lemma range_decode_encode_from s : forall b last acc,
  normfrom b s -> last <= b ->
  Forall (fun p => fst p < snd p /\ snd p < b) acc ->
  range_decode_from last acc (range_encode_from last s) = acc ++ s.
Proof.
  induction s as [|[lo hi] r IH]; intros b last acc Hn Hl Hacc;
    cbn [range_encode_from range_decode_from].
  - rewrite app_nil_r. reflexivity.
  - cbn [normfrom] in Hn. destruct Hn as (H1 & H2 & H3).
    replace (last + (lo - last)) with lo by lia.
    replace (lo + (hi - lo)) with hi by lia.
    assert (Ea : add lo hi acc = acc ++ [(lo, hi)]).
    { unfold add. destruct (hi <=? lo) eqn:E; [lia|]. exact (ins_append b lo hi acc H1 H2 Hacc). }
    rewrite Ea.
    rewrite (IH (hi + 1) hi (acc ++ [(lo, hi)]) H3).
    + rewrite <- app_assoc. reflexivity.
    + lia.
    + apply Forall_app. split.
      * eapply Forall_impl; [|exact Hacc]. cbn beta. intros p Hp. lia.
      * constructor; [cbn [fst snd]; lia | constructor].
Qed.

Theorem range_decode_encode s : norm s -> range_decode (range_encode s) = s.
Proof.
  intros Hn. unfold range_decode, range_encode.
  rewrite (range_decode_encode_from s 0 0 [] Hn); [reflexivity | lia | constructor].
Qed.
Print Assumptions range_decode_encode.

(* the decoder takes two items a round, and so does the induction *)
Lemma range_decode_from_norm : forall l last acc,
  norm acc -> norm (range_decode_from last acc l).
Proof.
  fix IH 1. intros [|off [|len rest]] last acc Hn; cbn [range_decode_from]; try exact Hn.
  apply IH, add_norm, Hn.
Qed.

(** Whatever a peer sends, the decoded value is in normal form. *)
Theorem range_decode_norm l : norm (range_decode l).
Proof. apply range_decode_from_norm. exact I. Qed.
Print Assumptions range_decode_norm.

Example range_nonvacuous :
  norm [(0, 5); (7, 9); (20, 21)]
  /\ range_encode [(0, 5); (7, 9); (20, 21)] = [0; 5; 2; 2; 11; 1]
  /\ range_decode [0; 5; 2; 2; 11; 1] = [(0, 5); (7, 9); (20, 21)].
Proof. split; [norm_by_compute | vm_compute; split; reflexivity]. Qed.

Example ex_adjacent_merge : add 5 10 (add 0 5 []) = [(0, 10)].
Proof. vm_compute. reflexivity. Qed.
Example ex_overlap_merge : add 3 8 (add 0 5 []) = [(0, 8)].
Proof. vm_compute. reflexivity. Qed.
Example ex_gap_kept : add 6 10 (add 0 5 []) = [(0, 5); (6, 10)].
Proof. vm_compute. reflexivity. Qed.
Example ex_empty_add : add 7 7 (add 0 5 []) = [(0, 5)].
Proof. vm_compute. reflexivity. Qed.
Example ex_reversed_add : add 9 7 (add 0 5 []) = [(0, 5)].
Proof. vm_compute. reflexivity. Qed.
Example ex_full_zero : full 0 = [] /\ closedopen 0 0 = full 0 /\ closedopen 0 7 = full 7.
Proof. vm_compute. auto. Qed.
Example ex_discrete :
  add 4 5 (closed 0 3) = closed 0 4 /\ union (singleton 4) (closed 0 3) = closed 0 4.
Proof. vm_compute. auto. Qed.

(** Agreement with harness/stubs/portion.py: each right-hand side is the
    output of
      /venv/bin/python -c "import sys; sys.path.insert(0,'/verif/harness/stubs');
        import portion as P; c=P.closedopen; print(<expr>)"
    for the expression in the comment ([s3] is c(10,20)|c(30,40)|c(50,60)). *)
Definition s3 : ivl := add 50 60 (add 30 40 (add 10 20 [])).

Example py_00 : (* c(0,5)|c(7,9)|c(4,8)  ->  [0,9) *)
  add 4 8 (add 7 9 (add 0 5 [])) = [(0, 9)].
Proof. vm_compute. reflexivity. Qed.
Example py_01 : (* s3  ->  [10,20) | [30,40) | [50,60) *)
  s3 = [(10, 20); (30, 40); (50, 60)].
Proof. vm_compute. reflexivity. Qed.
Example py_02 : (* s3|c(15,55)  ->  [10,60) *)
  add 15 55 s3 = [(10, 60)].
Proof. vm_compute. reflexivity. Qed.
Example py_03 : (* s3|c(0,10)  ->  [0,20) | [30,40) | [50,60) *)
  add 0 10 s3 = [(0, 20); (30, 40); (50, 60)].
Proof. vm_compute. reflexivity. Qed.
Example py_04 : (* s3|c(21,29)  ->  [10,20) | [21,29) | [30,40) | [50,60) *)
  add 21 29 s3 = [(10, 20); (21, 29); (30, 40); (50, 60)].
Proof. vm_compute. reflexivity. Qed.
Example py_05 : (* s3|c(20,30)  ->  [10,40) | [50,60) *)
  add 20 30 s3 = [(10, 40); (50, 60)].
Proof. vm_compute. reflexivity. Qed.
Example py_06 : (* s3|c(12,18)  ->  unchanged *)
  add 12 18 s3 = [(10, 20); (30, 40); (50, 60)].
Proof. vm_compute. reflexivity. Qed.
Example py_07 : (* s3|c(41,49)|c(61,70)  ->  [10,20) | [30,40) | [41,49) | [50,60) | [61,70) *)
  add 61 70 (add 41 49 s3) = [(10, 20); (30, 40); (41, 49); (50, 60); (61, 70)].
Proof. vm_compute. reflexivity. Qed.
Example py_08 : (* s3|c(0,100)  ->  [0,100) *)
  add 0 100 s3 = [(0, 100)].
Proof. vm_compute. reflexivity. Qed.
Example py_09 : (* empty()|c(3,4)|c(1,2)|c(2,3)  ->  [1,4) *)
  add 2 3 (add 1 2 (add 3 4 empty)) = [(1, 4)].
Proof. vm_compute. reflexivity. Qed.
Example py_10 : (* c(0,5)|c(7,7) and c(0,5)|c(9,7)  ->  [0,5) *)
  add 7 7 (add 0 5 []) = [(0, 5)] /\ add 9 7 (add 0 5 []) = [(0, 5)].
Proof. vm_compute. auto. Qed.

(** udpcl.agent.range_encode / range_decode run on the stub:
    range_encode(c(3,5)|c(7,9)) = [3,2,2,2]; range_decode([1,2,3]) = [1,3);
    range_decode([0,0,0,3]) = [0,3); range_decode([0,2,0,3]) = [0,5);
    range_decode([2,2,1,3,5]) = [2,4) | [5,8); range_encode(empty()) = []. *)
Example py_range :
  range_encode [(3, 5); (7, 9)] = [3; 2; 2; 2]
  /\ range_decode [1; 2; 3] = [(1, 3)]
  /\ range_decode [0; 0; 0; 3] = [(0, 3)]
  /\ range_decode [0; 2; 0; 3] = [(0, 5)]
  /\ range_decode [2; 2; 1; 3; 5] = [(2, 4); (5, 8)]
  /\ range_encode [] = [] /\ range_decode [] = [].
Proof. vm_compute. repeat split; reflexivity. Qed.
