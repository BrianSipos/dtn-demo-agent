(** Theorems about [Lib/Crc.v]: linearity of [pmod], the characterisation of
    [pmod] as remainder, the burst-error theorem, and the agreement of the
    executable bit-serial CRCs with the polynomial specification.
    Not covered: bursts that straddle the message and its own CRC field, and the
    octet-at-a-time table form used by the harness stand-in (tied to this model
    only by the vectors in [Crc.v]). *)
From Coq Require Import List NArith Bool PeanoNat Lia.
From DTN Require Import Lib.Bytes Lib.Crc.
Import ListNotations.

Lemma xorl_length a : forall b, length (xorl a b) = length a.
Proof.
  induction a as [|x a IH]; intros [|y b]; cbn; try reflexivity. now rewrite IH.
Qed.

Lemma zeros_length n : length (zeros n) = n.
Proof. apply repeat_length. Qed.
Lemma ones_length n : length (ones n) = n.
Proof. apply repeat_length. Qed.

Lemma zeros_snoc n : zeros n ++ [false] = zeros (S n).
Proof. unfold zeros. now rewrite <- repeat_cons. Qed.
Lemma zeros_app n k : zeros n ++ zeros k = zeros (n + k).
Proof. unfold zeros. now rewrite repeat_app. Qed.

Lemma xorl_zeros_r a : forall n, xorl a (zeros n) = a.
Proof.
  induction a as [|x a IH]; intros [|n]; cbn; try reflexivity.
  rewrite xorb_false_r. f_equal. apply IH.
Qed.

Lemma xorl_zeros_l b : xorl (zeros (length b)) b = b.
Proof. unfold zeros. induction b as [|y b IH]; cbn [length repeat xorl]; [reflexivity|]. now rewrite IH, xorb_false_l. Qed.

Lemma xorl_nilpotent a : xorl a a = zeros (length a).
Proof. unfold zeros. induction a as [|x a IH]; cbn; [reflexivity|]. now rewrite xorb_nilpotent, IH. Qed.

Lemma xorl_comm a : forall b, length a = length b -> xorl a b = xorl b a.
Proof.
  induction a as [|x a IH]; intros [|y b] H; cbn in *; try reflexivity; try discriminate.
  rewrite xorb_comm. f_equal. apply IH. lia.
Qed.

Lemma xorl_app a : forall b c d, length a = length b ->
  xorl (a ++ c) (b ++ d) = xorl a b ++ xorl c d.
Proof.
  induction a as [|x a IH]; intros [|y b] c d H; cbn in *; try reflexivity; try discriminate.
  f_equal. apply IH. lia.
Qed.

Lemma xorl_involutive a : forall b, xorl (xorl a b) b = a.
Proof.
  induction a as [|x a IH]; intros [|y b]; cbn; try reflexivity.
  f_equal; [destruct x, y; reflexivity | apply IH].
Qed.

Lemma xorl4 a : forall b c d, length a = length b -> length a = length c -> length a = length d ->
  xorl (xorl a b) (xorl c d) = xorl (xorl a c) (xorl b d).
Proof.
  induction a as [|x a IH]; intros [|y b] [|z c] [|u d] H1 H2 H3; cbn in *;
    try reflexivity; try discriminate.
  f_equal.
  - destruct x, y, z, u; reflexivity.
  - apply IH; lia.
Qed.

Lemma xorl_cancel_r a : forall b c, length a = length c ->
  xorl a c = xorl b c -> a = b.
Proof.
  induction a as [|x a IH]; intros [|y b] [|z c] H1 E; cbn in *;
    try reflexivity; try discriminate.
  injection E as E1 E2. f_equal.
  - destruct x, y, z; cbn in E1; congruence.
  - apply (IH b c); [lia|exact E2].
Qed.

Lemma xorl_neq a : forall b, length a = length b -> a <> b -> In true (xorl a b).
Proof.
  induction a as [|x a IH]; intros [|y b] H N; try discriminate H; [now destruct N|].
  cbn [xorl]. destruct (bool_dec x y) as [->|D].
  - right. apply IH; [now injection H|]. intros ->. now apply N.
  - left. now destruct x, y.
Qed.

(** the padding makes the lengths equal, as the linearity lemmas want *)
Lemma xor_prefix_xorl a : forall l n, xor_prefix a l = xorl l (a ++ zeros n).
Proof.
  induction a as [|x a IH]; intros l n; [symmetry; apply xorl_zeros_r|].
  destruct l as [|y l]; cbn; [reflexivity|]. now rewrite xorb_comm, (IH l n).
Qed.

Definition cmul (c : bool) (p : poly) : poly := if c then p else zeros (length p).

Lemma cmul_length c p : length (cmul c p) = length p.
Proof. destruct c; cbn; [reflexivity|apply zeros_length]. Qed.

Lemma cmul_xorb c c' p : cmul (xorb c c') p = xorl (cmul c p) (cmul c' p).
Proof.
  destruct c, c'; cbn.
  - now rewrite xorl_nilpotent.
  - now rewrite xorl_zeros_r.
  - now rewrite xorl_zeros_l.
  - rewrite <- (zeros_length (length p)) at 2. now rewrite xorl_zeros_l.
Qed.

(** In the lemma names [run] is the divider fed with a bit list,
    [fold_left (pstep glow)], and [rrun] the same for the register form [rstep]. *)
Section Divider.
  Variable glow : poly.
  Let w := length glow.

  Lemma pstep_length r b : length (pstep glow r b) = length r.
  Proof.
    destruct r as [|top rest]; cbn; [reflexivity|].
    destruct top; [rewrite xorl_length|]; rewrite app_length; cbn; lia.
  Qed.

  Lemma run_length m : forall r, length (fold_left (pstep glow) m r) = length r.
  Proof.
    induction m as [|b m IH]; intros r; cbn; [reflexivity|]. now rewrite IH, pstep_length.
  Qed.

  Lemma pstep_cmul top rest b :
    pstep glow (top :: rest) b = xorl (rest ++ [b]) (cmul top glow).
  Proof. destruct top; cbn; [reflexivity|]. now rewrite xorl_zeros_r. Qed.

  Lemma pstep_linear r r' b b' : length r = w -> length r' = w ->
    pstep glow (xorl r r') (xorb b b') = xorl (pstep glow r b) (pstep glow r' b').
  Proof.
    intros H H'. destruct r as [|t a], r' as [|t' a']; cbn [xorl length] in *;
      try reflexivity; try (exfalso; lia).
    rewrite !pstep_cmul. rewrite cmul_xorb.
    replace (xorl a a' ++ [xorb b b']) with (xorl (a ++ [b]) (a' ++ [b']))
      by (rewrite xorl_app by lia; reflexivity).
    apply xorl4; rewrite ?app_length, ?cmul_length; cbn; fold w; lia.
  Qed.

  Lemma run_linear m : forall m' r r', length m = length m' -> length r = w -> length r' = w ->
    fold_left (pstep glow) (xorl m m') (xorl r r')
    = xorl (fold_left (pstep glow) m r) (fold_left (pstep glow) m' r').
  Proof.
    induction m as [|b m IH]; intros [|b' m'] r r' Hm Hr Hr'; cbn in *;
      try reflexivity; try discriminate.
    rewrite pstep_linear by assumption.
    apply IH; rewrite ?pstep_length; lia.
  Qed.

  Lemma pstep_zeros_false n : pstep glow (zeros n) false = zeros n.
  Proof. destruct n; cbn; [reflexivity|]. now rewrite zeros_snoc. Qed.

  Lemma run_zeros n k : fold_left (pstep glow) (zeros k) (zeros n) = zeros n.
  Proof. induction k as [|k IH]; cbn; [reflexivity|]. now rewrite pstep_zeros_false. Qed.

  Lemma run_shift_in b : forall k p, (length b <= k)%nat ->
    fold_left (pstep glow) b (zeros k ++ p) = zeros (k - length b) ++ p ++ b.
  Proof.
    induction b as [|x b IH]; intros k p H; cbn [fold_left length] in *.
    - now rewrite Nat.sub_0_r, app_nil_r.
    - destruct k as [|k]; [lia|]. cbn [zeros repeat app pstep].
      rewrite <- app_assoc. fold (zeros k). rewrite IH by lia.
      rewrite <- app_assoc. reflexivity.
  Qed.

  Lemma run_load r : length r = w -> fold_left (pstep glow) r (zeros w) = r.
  Proof.
    intros H. rewrite <- (app_nil_r (zeros w)), run_shift_in by lia.
    rewrite H, Nat.sub_diag. reflexivity.
  Qed.

  (** Multiplication by x modulo g is injective when g(0) = 1. *)
  Lemma pstep_false_inj r : length r = w -> last glow false = true ->
    pstep glow r false = zeros w -> r = zeros w.
  Proof.
    intros H Hl E. destruct r as [|top rest]; [now rewrite <- H|]. cbn [length] in H.
    destruct top; cbn [pstep] in E.
    - (* subtracting the generator left zero: it would end in the 0 just shifted in *)
      unfold w in E. rewrite <- xorl_nilpotent in E.
      apply xorl_cancel_r in E; [|rewrite app_length; cbn; lia].
      rewrite <- E, last_last in Hl. discriminate.
    - rewrite <- H in *. rewrite <- zeros_snoc in E. apply app_inj_tail in E as [E _]. cbn [zeros repeat]. now f_equal.
  Qed.

  Lemma run_zeros_inj k : forall r, length r = w -> last glow false = true ->
    fold_left (pstep glow) (zeros k) r = zeros w -> r = zeros w.
  Proof.
    induction k as [|k IH]; intros r H Hl E; cbn in *; [assumption|].
    apply pstep_false_inj; try assumption.
    apply IH; try assumption. now rewrite pstep_length.
  Qed.

  Lemma run_burst_nonzero i b j : last glow false = true -> (length b <= w)%nat -> In true b ->
    fold_left (pstep glow) ((zeros i ++ b ++ zeros j) ++ zeros w) (zeros w) <> zeros w.
  Proof.
    intros Hl Hb Hin E.
    (* the leading zeros do nothing, the burst is loaded as it is, and the zeros after it only
       multiply by x, which is injective *)
    rewrite <- !app_assoc, zeros_app in E.
    rewrite fold_left_app, run_zeros in E.
    rewrite fold_left_app in E.
    rewrite <- (app_nil_r (zeros w)) in E at 1. rewrite run_shift_in in E by assumption.
    cbn [app] in E.
    apply run_zeros_inj in E; try assumption.
    - assert (Hin' : In true (zeros w)).
      { rewrite <- E. apply in_or_app. now right. }
      apply repeat_spec in Hin'. discriminate.
    - rewrite app_length, zeros_length. lia.
  Qed.

  (** x^w mod g = glow. *)
  Lemma run_xw : fold_left (pstep glow) (true :: zeros w) (zeros w) = glow.
  Proof.
    assert (G : forall n, length glow = n ->
              fold_left (pstep glow) (true :: zeros n) (zeros n) = glow).
    { intros [|n] Hn.
      - cbn. destruct glow; [reflexivity|discriminate].
      - replace (true :: zeros (S n)) with ((true :: zeros n) ++ [false])
          by (cbn [app]; now rewrite zeros_snoc).
        rewrite fold_left_app.
        rewrite <- (app_nil_r (zeros (S n))), run_shift_in
          by (cbn; rewrite zeros_length; lia).
        cbn [length]. rewrite zeros_length, Nat.sub_diag. cbn.
        rewrite zeros_snoc. rewrite <- Hn. apply xorl_zeros_l. }
    apply G. reflexivity.
  Qed.

  (** The register (direct) form of the executable model, [Crc.crc_bit], on coefficient lists. *)
  Definition rstep (r : poly) (b : bool) : poly :=
    match r with
    | [] => []
    | top :: rest => if xorb top b then xorl (rest ++ [false]) glow else rest ++ [false]
    end.

  Lemma rstep_pstep r b : rstep r b = xorl (pstep glow r false) (cmul b glow).
  Proof.
    destruct r as [|top rest]; [reflexivity|]. rewrite pstep_cmul. unfold rstep.
    destruct top, b; cbn [xorb cmul]; rewrite ?xorl_zeros_r; [now rewrite xorl_involutive|reflexivity..].
  Qed.

  Lemma rstep_length r b : length (rstep r b) = length r.
  Proof. now rewrite rstep_pstep, xorl_length, pstep_length. Qed.

  Lemma rrun_length m : forall r, length (fold_left rstep m r) = length r.
  Proof.
    induction m as [|b m IH]; intros r; cbn; [reflexivity|]. now rewrite IH, rstep_length.
  Qed.

  Lemma rstep_false r : rstep r false = pstep glow r false.
  Proof. rewrite rstep_pstep. apply xorl_zeros_r. Qed.

  Lemma rrun_zeros k : forall r, fold_left rstep (zeros k) r = fold_left (pstep glow) (zeros k) r.
  Proof. induction k as [|k IH]; intros r; cbn; [reflexivity|]. now rewrite rstep_false, IH. Qed.

  Lemma rstep_linear r r' b b' : length r = w -> length r' = w ->
    rstep (xorl r r') (xorb b b') = xorl (rstep r b) (rstep r' b').
  Proof.
    intros H H'. rewrite !rstep_pstep.
    rewrite <- (xorb_false_l false) at 1. rewrite pstep_linear by assumption.
    rewrite cmul_xorb. apply xorl4; rewrite ?pstep_length, ?cmul_length; fold w; lia.
  Qed.

  Lemma rrun_linear m : forall m' r r', length m = length m' -> length r = w -> length r' = w ->
    fold_left rstep (xorl m m') (xorl r r')
    = xorl (fold_left rstep m r) (fold_left rstep m' r').
  Proof.
    induction m as [|b m IH]; intros [|b' m'] r r' Hm Hr Hr'; cbn in *;
      try reflexivity; try discriminate.
    rewrite rstep_linear by assumption.
    apply IH; rewrite ?rstep_length; lia.
  Qed.

  (** [Aw s] = s * x^w mod g. *)
  Let Aw (s : poly) : poly := fold_left (pstep glow) (zeros w) s.

  Lemma Aw_linear s s' : length s = w -> length s' = w ->
    Aw (xorl s s') = xorl (Aw s) (Aw s').
  Proof.
    intros H H'. unfold Aw. rewrite <- run_linear; rewrite ?zeros_length; try assumption; try reflexivity.
    rewrite xorl_zeros_r. reflexivity.
  Qed.

  Lemma Aw_pstep_false s : Aw (pstep glow s false) = pstep glow (Aw s) false.
  Proof.
    unfold Aw. change (fold_left (pstep glow) (zeros w) (pstep glow s false))
      with (fold_left (pstep glow) (false :: zeros w) s).
    change (false :: zeros w) with (zeros (S w)).
    rewrite <- zeros_snoc, fold_left_app. reflexivity.
  Qed.

  Lemma Aw_unit b : Aw (pstep glow (zeros w) b) = cmul b glow.
  Proof.
    destruct b.
    - unfold Aw. change (fold_left (pstep glow) (zeros w) (pstep glow (zeros w) true))
        with (fold_left (pstep glow) (true :: zeros w) (zeros w)). apply run_xw.
    - rewrite pstep_zeros_false. unfold Aw. apply run_zeros.
  Qed.

  Lemma rstep_Aw s b : length s = w -> rstep (Aw s) b = Aw (pstep glow s b).
  Proof.
    intros H.
    rewrite rstep_pstep.
    rewrite <- (xorl_zeros_r s w) at 2. rewrite <- (xorb_false_l b) at 2.
    rewrite pstep_linear by (rewrite ?zeros_length; auto).
    rewrite Aw_linear by (rewrite pstep_length, ?zeros_length; auto).
    now rewrite Aw_pstep_false, Aw_unit.
  Qed.

  Lemma rrun_Aw m : forall s, length s = w ->
    fold_left rstep m (Aw s) = Aw (fold_left (pstep glow) m s).
  Proof.
    induction m as [|b m IH]; intros s H; cbn [fold_left]; [reflexivity|].
    rewrite rstep_Aw by assumption. apply IH. now rewrite pstep_length.
  Qed.

  (** The register fed with [m] from preset [r] holds the remainder of
      (m * x^w) + (r * x^|m|). *)
  Lemma rrun_pmod m r : length r = w ->
    fold_left rstep m r
    = fold_left (pstep glow) (xor_prefix r (m ++ zeros w)) (zeros w).
  Proof.
    intros H.
    (* by linearity both sides are the part of the message plus the part of the preset *)
    transitivity (xorl (Aw (fold_left (pstep glow) m (zeros w))) (fold_left (pstep glow) (zeros (length m)) r)).
    - rewrite <- (xorl_zeros_l r) at 1. rewrite <- (xorl_zeros_r m (length m)) at 1.
      rewrite rrun_linear, rrun_zeros by (rewrite ?zeros_length; auto).
      f_equal. rewrite H, <- (rrun_Aw m (zeros w)) by apply zeros_length. unfold Aw. now rewrite run_zeros.
    - rewrite (xor_prefix_xorl r _ (length m)). rewrite <- (xorl_zeros_r (zeros w) w) at 3.
      rewrite run_linear by (rewrite ?app_length, ?zeros_length; lia).
      now rewrite !fold_left_app, (run_load r H).
  Qed.
End Divider.

Lemma run_nil glow m : fold_left (pstep glow) m [] = [].
Proof. apply length_zero_iff_nil. now rewrite run_length. Qed.

Theorem pmod_length m g : length (pmod m g) = (length g - 1)%nat.
Proof.
  destruct g as [|c glow]; cbn [pmod length]; [reflexivity|].
  rewrite run_length, zeros_length. lia.
Qed.

Theorem pmod_linear a b g : length a = length b ->
  pmod (xorl a b) g = xorl (pmod a g) (pmod b g).
Proof.
  intros H. destruct g as [|c glow]; cbn [pmod]; [reflexivity|].
  rewrite <- (xorl_zeros_r (zeros (length glow)) (length glow)) at 1.
  apply run_linear; rewrite ?zeros_length; auto.
Qed.

(** Together with linearity the next three facts determine [pmod m g] uniquely
    as "the" remainder of [m] modulo the monic [g]: leading zeros are
    irrelevant; a dividend of degree below [w] is its own remainder; every shift
    g * x^k of the generator has remainder zero (so by linearity a leading 1 of
    a long dividend can be cancelled against g * x^k without changing the
    remainder, which is schoolbook division). *)
Theorem pmod_leading_zeros k m g : pmod (zeros k ++ m) g = pmod m g.
Proof.
  destruct g as [|c glow]; cbn [pmod]; [reflexivity|].
  now rewrite fold_left_app, run_zeros.
Qed.

Theorem pmod_small m g : (length m <= length g - 1)%nat ->
  pmod m g = zeros (length g - 1 - length m) ++ m.
Proof.
  destruct g as [|c glow]; cbn [pmod length Nat.sub]; rewrite ?Nat.sub_0_r; intros H.
  - now destruct m.
  - rewrite <- (app_nil_r (zeros (length glow))) at 1.
    now rewrite run_shift_in by assumption.
Qed.

Theorem pmod_generator_shift glow k :
  pmod ((true :: glow) ++ zeros k) (true :: glow) = zeros (length glow).
Proof.
  cbn [pmod]. rewrite fold_left_app.
  (* g = x^w + glow, and both terms have remainder glow *)
  rewrite <- (xorl_zeros_r (zeros (length glow)) (length glow)) at 1.
  replace (true :: glow) with (xorl (true :: zeros (length glow)) (false :: glow))
    by (cbn [xorl xorb]; now rewrite xorl_zeros_l).
  rewrite run_linear, run_xw by (cbn [length]; rewrite ?zeros_length; reflexivity).
  cbn [fold_left]. rewrite pstep_zeros_false, run_load, xorl_nilpotent by reflexivity. apply run_zeros.
Qed.

Lemma monic_split g : hd false g = true -> exists glow, g = true :: glow.
Proof. destruct g as [|[] glow]; cbn; try discriminate. eauto. Qed.

(** Let [g] be monic of degree [w] with non-zero constant term.  If [e] is zero
    except for a non-zero pattern confined to at most [w] consecutive
    coefficients, then [e * x^w] is not divisible by [g]. *)
Theorem pmod_burst (g : poly) (e : list bool) :
  hd false g = true -> last g false = true ->
  is_burst (length g - 1) e ->
  pmod (e ++ zeros (length g - 1)) g <> zeros (length g - 1).
Proof.
  intros Hm Hl (i & b & j & -> & Hb & Hin).
  destruct (monic_split g Hm) as [glow ->]. cbn [length pmod Nat.sub] in *. rewrite Nat.sub_0_r in *.
  destruct glow as [|c glow'].
  - destruct b; [contradiction|cbn in Hb; lia].
  - apply run_burst_nonzero; auto.
Qed.

Lemma crc_spec_bits_length g msg : length (crc_spec_bits g msg) = (length g - 1)%nat.
Proof. unfold crc_spec_bits. now rewrite xorl_length, pmod_length. Qed.

(** The preset enters the remainder as a term of its own, which depends on the
    message only through its length. *)
Lemma pmod_preset r m g w : length r = w ->
  pmod (xor_prefix r (m ++ zeros w)) g = xorl (pmod (m ++ zeros w) g) (pmod (r ++ zeros (length m)) g).
Proof.
  intros <-. rewrite (xor_prefix_xorl r _ (length m)). apply pmod_linear.
  rewrite !app_length, !zeros_length. apply Nat.add_comm.
Qed.

Theorem crc_spec_bits_burst (g : poly) (a b : list bool) :
  hd false g = true -> last g false = true ->
  length a = length b -> is_burst (length g - 1) (xorl a b) ->
  crc_spec_bits g a <> crc_spec_bits g b.
Proof.
  intros Hm Hl Hab Hb E. apply (pmod_burst g (xorl a b) Hm Hl Hb).
  (* cancel the final xor, then the preset term, the same for both; by linearity
     equal remainders of [a] and [b] make the remainder of their difference zero *)
  unfold crc_spec_bits in E. set (w := (length g - 1)%nat) in *.
  apply xorl_cancel_r in E; rewrite ?pmod_length, ?ones_length; try reflexivity.
  rewrite !pmod_preset, Hab in E by apply ones_length.
  apply xorl_cancel_r in E; rewrite ?pmod_length; try reflexivity.
  rewrite <- (xorl_zeros_r (zeros w) w) at 1. rewrite <- xorl_app by assumption.
  rewrite pmod_linear, E, xorl_nilpotent, pmod_length by (now rewrite !app_length, Hab). reflexivity.
Qed.

Lemma of_bits_xorl a : forall b, length a = length b ->
  of_bits (xorl a b) = N.lxor (of_bits a) (of_bits b).
Proof.
  induction a as [|x a IH]; intros [|y b] H; cbn [length] in H; try discriminate; [reflexivity|].
  cbn [xorl of_bits]. rewrite IH by lia.
  destruct x, y; cbn [xorb]; destruct (of_bits a), (of_bits b); reflexivity.
Qed.

Lemma of_bits_snoc_false l : of_bits (l ++ [false]) = of_bits l.
Proof. induction l as [|x l IH]; cbn [app of_bits]; [reflexivity|]. now rewrite IH. Qed.

Lemma of_bits_inj a : forall b, length a = length b -> of_bits a = of_bits b -> a = b.
Proof.
  induction a as [|x a IH]; intros [|y b] H E; cbn [length] in H; try discriminate; [reflexivity|].
  destruct x, y; cbn [of_bits] in E.
  - apply N.succ_double_inj in E. f_equal. apply IH; [lia|assumption].
  - destruct (of_bits a), (of_bits b); discriminate.
  - destruct (of_bits a), (of_bits b); discriminate.
  - apply N.double_inj in E. f_equal. apply IH; [lia|assumption].
Qed.

Lemma of_bits_bound l : (of_bits l < 2 ^ N.of_nat (length l))%N.
Proof.
  induction l as [|x l IH]; cbn [of_bits length]; [reflexivity|].
  rewrite Nnat.Nat2N.inj_succ, N.pow_succ_r'.
  destruct x; rewrite ?N.succ_double_spec, ?N.double_spec; lia.
Qed.

Lemma bits_of_bytes_length m : length (bits_of_bytes m) = (8 * length m)%nat.
Proof.
  unfold bits_of_bytes. induction m as [|x m IH]; [reflexivity|].
  cbn [flat_map]. rewrite app_length, IH. cbn [length octet_bits map]. lia.
Qed.

Lemma bits_of_bytes_app a b : bits_of_bytes (a ++ b) = bits_of_bytes a ++ bits_of_bytes b.
Proof. apply flat_map_app. Qed.

Theorem crc_spec_burst (g : poly) (m m' : bytes) :
  hd false g = true -> last g false = true ->
  burst_apart (length g - 1) m m' ->
  crc_spec g m <> crc_spec g m'.
Proof.
  intros Hm Hl [Hlen Hb] E. unfold crc_spec in E.
  apply of_bits_inj in E; [|now rewrite !crc_spec_bits_length].
  revert E. apply crc_spec_bits_burst; auto.
  now rewrite !bits_of_bytes_length, Hlen.
Qed.

Lemma crc_bit_rstep glow r b : length r = length glow ->
  crc_bit (of_bits glow) (of_bits r) b = of_bits (rstep glow r b).
Proof.
  intros H. destruct r as [|top rest].
  - destruct glow; [|discriminate]. destruct b; reflexivity.
  - unfold crc_bit. cbn [of_bits rstep].
    replace (N.odd _) with top by (destruct top, (of_bits rest); reflexivity).
    replace (N.shiftr _ 1) with (of_bits rest) by (destruct top, (of_bits rest); reflexivity).
    destruct (xorb top b).
    + rewrite of_bits_xorl, of_bits_snoc_false; [reflexivity|].
      rewrite app_length. cbn [length] in *. lia.
    + now rewrite of_bits_snoc_false.
Qed.

Lemma crc_bits_rrun glow m : forall r, length r = length glow ->
  fold_left (crc_bit (of_bits glow)) m (of_bits r) = of_bits (fold_left (rstep glow) m r).
Proof.
  induction m as [|b m IH]; intros r H; cbn [fold_left]; [reflexivity|].
  rewrite crc_bit_rstep by assumption. apply IH. now rewrite rstep_length.
Qed.

Lemma crc_octets_bits p bs : forall crc,
  fold_left (crc_octet p) bs crc = fold_left (crc_bit p) (bits_of_bytes bs) crc.
Proof.
  induction bs as [|x bs IH]; intros crc; [reflexivity|].
  unfold bits_of_bytes. cbn [fold_left flat_map]. rewrite fold_left_app. apply IH.
Qed.

(** Generic tie: the bit-serial reflected register over [N] with reflected
    polynomial [of_bits glow], preset and final xor all ones, equals the
    polynomial specification for the generator x^w + glow. No condition on
    the octets: both sides read only the low eight bits of each. *)
Theorem crc_run_spec (glow : poly) (bs : bytes) :
  crc_run (of_bits glow) (of_bits (ones (length glow))) (of_bits (ones (length glow))) bs
  = crc_spec (true :: glow) bs.
Proof.
  unfold crc_run, crc_spec, crc_spec_bits. cbn [length pmod Nat.sub]. rewrite Nat.sub_0_r.
  rewrite crc_octets_bits, crc_bits_rrun by apply ones_length.
  rewrite rrun_pmod by apply ones_length.
  rewrite of_bits_xorl; [reflexivity|].
  now rewrite run_length, zeros_length, ones_length.
Qed.

Theorem crc16_x25_spec (bs : bytes) : crc16_x25 bs = crc_spec_x25 bs.
Proof. exact (crc_run_spec (tl g_x25) bs). Qed.

Theorem crc32c_spec (bs : bytes) : crc32c bs = crc_spec_32c bs.
Proof. exact (crc_run_spec (tl g_32c) bs). Qed.

(** The same under a well-formedness premise, which the proof does not use. *)
Corollary crc16_x25_spec_wf (bs : bytes) : wf_bytes bs -> crc16_x25 bs = crc_spec_x25 bs.
Proof. intros _. apply crc16_x25_spec. Qed.
Corollary crc32c_spec_wf (bs : bytes) : wf_bytes bs -> crc32c bs = crc_spec_32c bs.
Proof. intros _. apply crc32c_spec. Qed.

Lemma octet_bits_inj x y : (x < 256)%N -> (y < 256)%N -> octet_bits x = octet_bits y -> x = y.
Proof.
  intros Hx Hy E. rewrite <- (N.mod_small x (2 ^ 8) Hx), <- (N.mod_small y (2 ^ 8) Hy).
  apply N.bits_inj. intros i. destruct (N.lt_ge_cases i 8) as [L|L].
  - rewrite !N.mod_pow2_bits_low by exact L.
    (* [octet_bits] maps [N.testbit] over the literal list 0..7: equal maps agree at every
       member of that list, and [i < 8] is one of them *)
    apply (proj1 (@map_ext_in_iff _ _ _ _ _) E). cbn. lia.
  - now rewrite !N.mod_pow2_bits_high.
Qed.

Lemma bits_of_bytes_inj a : forall b, wf_bytes a -> wf_bytes b -> length a = length b ->
  bits_of_bytes a = bits_of_bytes b -> a = b.
Proof.
  induction a as [|x a IH]; intros [|y b] Ha Hb H E; try discriminate H; [reflexivity|].
  inversion Ha; inversion Hb; subst. injection H as H.
  apply app_inj_len in E as [E1 E2]; [|reflexivity].
  f_equal; [apply octet_bits_inj|apply IH]; assumption.
Qed.

Lemma burst_apart_app_r w a b s : burst_apart w a b -> burst_apart w (a ++ s) (b ++ s).
Proof.
  intros [Hl (i & e & j & E & He)]. split; [rewrite !app_length; congruence|].
  rewrite !bits_of_bytes_app, xorl_app, xorl_nilpotent, E by (rewrite !bits_of_bytes_length; congruence).
  exists i, e, (j + length (bits_of_bytes s))%nat. rewrite <- zeros_app, <- !app_assoc. auto.
Qed.

Lemma burst_apart_window (w : nat) (p a a' s : bytes) :
  wf_bytes a -> wf_bytes a' -> length a = length a' -> (8 * length a <= w)%nat -> a <> a' ->
  burst_apart w (p ++ a ++ s) (p ++ a' ++ s).
Proof.
  intros Ha Ha' Hl Hw Hne. split; [rewrite !app_length; lia|].
  exists (8 * length p)%nat, (xorl (bits_of_bytes a) (bits_of_bytes a')), (8 * length s)%nat.
  repeat split.
  - rewrite !bits_of_bytes_app.
    rewrite !xorl_app by (rewrite !bits_of_bytes_length; lia).
    now rewrite !xorl_nilpotent, !bits_of_bytes_length.
  - now rewrite xorl_length, bits_of_bytes_length.
  - apply xorl_neq; [now rewrite !bits_of_bytes_length, Hl|].
    intros E. now apply Hne, bits_of_bytes_inj.
Qed.

Section Register.
  Variable glow : poly.
  Let w := length glow.
  Let crc := crc_run (of_bits glow) (of_bits (ones w)) (of_bits (ones w)).
  Hypothesis Hlast : last (true :: glow) false = true.

  Lemma crc_run_burst m m' : burst_apart w m m' -> crc m <> crc m'.
  Proof.
    intros H. unfold crc, w. rewrite !crc_run_spec. apply crc_spec_burst; [reflexivity|exact Hlast|].
    cbn [length]. rewrite Nat.sub_1_r. exact H.
  Qed.

  Lemma crc_run_bound bs : (crc bs < 2 ^ N.of_nat w)%N.
  Proof.
    unfold crc, w. rewrite crc_run_spec. unfold crc_spec.
    pose proof (of_bits_bound (crc_spec_bits (true :: glow) (bits_of_bytes bs))) as H.
    rewrite crc_spec_bits_length in H. cbn [length] in H. rewrite Nat.sub_1_r in H. exact H.
  Qed.

  (** the encoded fields differ as well: [be k] is injective in range *)
  Lemma crc_run_field_burst k m m' :
    (2 ^ N.of_nat w = 256 ^ N.of_nat k)%N -> burst_apart w m m' -> be k (crc m) <> be k (crc m').
  Proof.
    intros Hk H E. apply (crc_run_burst m m' H).
    apply be_inj in E; [exact E| |]; rewrite <- Hk; apply crc_run_bound.
  Qed.
End Register.

(** For all octet strings [m], [m'] of equal length whose bitwise difference
    (bits in CRC order, LSB first per octet) is a non-zero pattern confined to at
    most 16 (resp. 32) consecutive bits, the CRCs differ. *)
Theorem crc16_x25_burst (m m' : bytes) : burst_apart 16 m m' -> crc16_x25 m <> crc16_x25 m'.
Proof. exact (crc_run_burst (tl g_x25) eq_refl m m'). Qed.

Theorem crc32c_burst (m m' : bytes) : burst_apart 32 m m' -> crc32c m <> crc32c m'.
Proof. exact (crc_run_burst (tl g_32c) eq_refl m m'). Qed.

(** Range of the results (so that [be 2] / [be 4] lose nothing). *)
Theorem crc16_x25_bound bs : (crc16_x25 bs < 2 ^ 16)%N.
Proof. exact (crc_run_bound (tl g_x25) bs). Qed.

Theorem crc32c_bound bs : (crc32c bs < 2 ^ 32)%N.
Proof. exact (crc_run_bound (tl g_32c) bs). Qed.

Corollary crc16_x25_field_burst (m m' : bytes) :
  burst_apart 16 m m' -> crc16_x25_field m <> crc16_x25_field m'.
Proof. exact (crc_run_field_burst (tl g_x25) eq_refl 2 m m' eq_refl). Qed.

Corollary crc32c_field_burst (m m' : bytes) :
  burst_apart 32 m m' -> crc32c_field m <> crc32c_field m'.
Proof. exact (crc_run_field_burst (tl g_32c) eq_refl 4 m m' eq_refl). Qed.

(** CRC-16/X.25 detects every change confined to one or two adjacent octets,
    CRC-32C every change confined to up to four adjacent octets, whatever the
    length of the surrounding data. *)
Theorem crc16_x25_window (p a a' s : bytes) :
  wf_bytes a -> wf_bytes a' -> length a = length a' -> (length a <= 2)%nat -> a <> a' ->
  crc16_x25 (p ++ a ++ s) <> crc16_x25 (p ++ a' ++ s).
Proof. intros. apply crc16_x25_burst, burst_apart_window; auto; lia. Qed.

Theorem crc32c_window (p a a' s : bytes) :
  wf_bytes a -> wf_bytes a' -> length a = length a' -> (length a <= 4)%nat -> a <> a' ->
  crc32c (p ++ a ++ s) <> crc32c (p ++ a' ++ s).
Proof. intros. apply crc32c_burst, burst_apart_window; auto; lia. Qed.

(** A 16-bit burst that straddles three octets (bits 4..7 of octet 1, all of
    octet 2, bits 0..3 of octet 3; first and last bit of the window set). *)
Example burst_apart_16_example :
  burst_apart 16 [1; 2; 3; 4; 5]%N [1; 18; 3; 12; 5]%N.
Proof.
  split; [reflexivity|].
  exists 12%nat, ([true] ++ zeros 14 ++ [true]), 12%nat. repeat split.
  - cbn. lia.
  - now left.
Qed.

Example burst_apart_32_example :
  burst_apart 32 [0; 0; 0; 0; 0; 0]%N [0; 128; 255; 255; 255; 127]%N.
Proof.
  split; [reflexivity|].
  exists 15%nat, (ones 32), 1%nat. repeat split.
  - cbn. lia.
  - now left.
Qed.

Example crc16_x25_burst_example :
  crc16_x25 [1; 2; 3; 4; 5]%N <> crc16_x25 [1; 18; 3; 12; 5]%N.
Proof. apply crc16_x25_burst, burst_apart_16_example. Qed.

Example pmod_burst_hyps_x25 :
  hd false g_x25 = true /\ last g_x25 false = true
  /\ is_burst (length g_x25 - 1) (zeros 3 ++ [false; true; true; false] ++ zeros 40).
Proof.
  repeat split; try reflexivity.
  exists 3%nat, [false; true; true; false], 40%nat. repeat split.
  - cbn. lia.
  - right. now left.
Qed.

Example crc32c_window_example :
  crc32c ([9; 9] ++ [1; 2; 3; 4] ++ [7])%N <> crc32c ([9; 9] ++ [1; 2; 3; 5] ++ [7])%N.
Proof.
  apply crc32c_window; try reflexivity; try (cbn; lia); try discriminate;
    repeat constructor; unfold wf_byte; lia.
Qed.

(** Wider bursts are not always detected: the generator itself is a 17-bit
    pattern with remainder zero, so the hypothesis [length b <= w] cannot be
    dropped. *)
Example burst_17_undetected :
  pmod (g_x25 ++ zeros 16) g_x25 = zeros 16
  /\ crc16_x25 [0; 0; 0]%N = crc16_x25 [0x11; 0x08; 0x01]%N.
Proof. split; vm_compute; reflexivity. Qed.

Print Assumptions pmod_linear.
Print Assumptions pmod_leading_zeros.
Print Assumptions pmod_small.
Print Assumptions pmod_generator_shift.
Print Assumptions pmod_burst.
Print Assumptions crc_spec_bits_burst.
Print Assumptions crc_spec_burst.
Print Assumptions crc_run_spec.
Print Assumptions crc16_x25_spec.
Print Assumptions crc32c_spec.
Print Assumptions crc16_x25_burst.
Print Assumptions crc32c_burst.
Print Assumptions crc16_x25_window.
Print Assumptions crc32c_window.
Print Assumptions crc16_x25_bound.
Print Assumptions crc32c_bound.
Print Assumptions crc16_x25_field_burst.
Print Assumptions crc32c_field_burst.
