(** Octet strings as lists of [N] (each < 256), big-endian fixed-width
    integers, and the helpers the correspondence files use to write octet
    strings compactly ([unhex len 0x...]). Definitions and their basic
    lemmas; stdlib only. *)
From Coq Require Import List NArith ZArith Arith Lia ZifyN ZifyNat ZifyBool.
Import ListNotations.
Local Open Scope N_scope.

(** What [lia] does after [zify]: div/mod equations, and not ZifyBool's case analysis on Boolean subterms.  The
    setting is global: it holds in every file that requires this one, until a file required later sets it again
    (Lib/IvlProofs.v, Proofs/BpFragProofs.v). *)
Ltac Zify.zify_post_hook ::= Z.div_mod_to_equations.

(** List facts that the standard library of Coq 8.16 lacks. *)
Section lists.
  Context {A : Type}.

  Lemma firstn_len_app (a b : list A) : firstn (length a) (a ++ b) = a.
  Proof. rewrite firstn_app, Nat.sub_diag, firstn_all. apply app_nil_r. Qed.

  Lemma skipn_len_app (a b : list A) : skipn (length a) (a ++ b) = b.
  Proof. rewrite skipn_app, Nat.sub_diag, skipn_all. reflexivity. Qed.

  Lemma skipn_skipn (a b : nat) (l : list A) : skipn a (skipn b l) = skipn (b + a) l.
  Proof.
    revert l. induction b as [|b IH]; intros l; [reflexivity|].
    destruct l as [|x l]; [now rewrite !skipn_nil|]. apply IH.
  Qed.

  Lemma app_inj_len (a : list A) : forall b c d, length a = length c -> a ++ b = c ++ d -> a = c /\ b = d.
  Proof.
    induction a as [|x a IH]; intros b [|y c] d L E; try discriminate; [auto|].
    injection E as -> E. injection L as L. destruct (IH b c d L E) as [-> ->]. auto.
  Qed.

  Lemma app_inj_len_tail (a b c d : list A) : length b = length d -> a ++ b = c ++ d -> a = c /\ b = d.
  Proof.
    intros L E. apply app_inj_len; [|exact E].
    apply (f_equal (@length A)) in E. rewrite !app_length in E. lia.
  Qed.

  Lemma hd_error_app (l l' : list A) b : hd_error l = Some b -> hd_error (l ++ l') = Some b.
  Proof. destruct l; [discriminate|tauto]. Qed.

  Lemma forallb_Forall (f : A -> bool) l : forallb f l = true <-> Forall (fun x => f x = true) l.
  Proof. rewrite forallb_forall, Forall_forall. reflexivity. Qed.
End lists.

Definition byte := N.
Definition bytes := list N.

Definition wf_byte (b : N) : Prop := b < 256.
Definition wf_bytes (l : bytes) : Prop := Forall wf_byte l.

Definition wf_byteb (b : N) : bool := b <? 256.
Definition wf_bytesb (l : bytes) : bool := forallb wf_byteb l.

Lemma wf_bytesb_spec l : wf_bytesb l = true <-> wf_bytes l.
Proof.
  unfold wf_bytesb, wf_bytes. rewrite forallb_Forall. split; apply Forall_impl; intros b; apply N.ltb_lt.
Qed.

Lemma wf_bytes_app a b : wf_bytes (a ++ b) <-> wf_bytes a /\ wf_bytes b.
Proof. unfold wf_bytes. apply Forall_app. Qed.

Lemma wf_bytes_firstn k l : wf_bytes l -> wf_bytes (firstn k l).
Proof. intros W. rewrite <- (firstn_skipn k l) in W. apply wf_bytes_app in W. tauto. Qed.

Lemma wf_bytes_skipn k l : wf_bytes l -> wf_bytes (skipn k l).
Proof. intros W. rewrite <- (firstn_skipn k l) in W. apply wf_bytes_app in W. tauto. Qed.

(** [be k n]: the [k]-octet big-endian representation of [n] (truncating). *)
Fixpoint be (k : nat) (n : N) : bytes :=
  match k with
  | O => []
  | S k' => be k' (n / 256) ++ [n mod 256]
  end.

(** [unbe l]: big-endian value of an octet string. *)
Definition unbe (l : bytes) : N := fold_left (fun acc b => acc * 256 + b) l 0.

Lemma be_length k : forall n, length (be k n) = k.
Proof. induction k as [|k IH]; intros n; cbn [be]; [reflexivity|]. rewrite app_length, IH. cbn. lia. Qed.

Lemma be_wf k : forall n, wf_bytes (be k n).
Proof.
  induction k as [|k IH]; intros n; cbn [be]; [constructor|].
  apply wf_bytes_app. split; [apply IH|]. constructor; [|constructor]. unfold wf_byte. lia.
Qed.

Lemma unbe_app a b : unbe (a ++ [b]) = unbe a * 256 + b.
Proof. unfold unbe. rewrite fold_left_app. reflexivity. Qed.

Lemma unbe_be k : forall n, n < 256 ^ N.of_nat k -> unbe (be k n) = n.
Proof.
  induction k as [|k IH]; intros n Hn.
  - cbn in *. unfold unbe. cbn. lia.
  - cbn [be]. rewrite unbe_app. rewrite IH.
    + lia.
    + rewrite Nnat.Nat2N.inj_succ, N.pow_succ_r' in Hn. lia.
Qed.

Lemma be_inj k a b : a < 256 ^ N.of_nat k -> b < 256 ^ N.of_nat k -> be k a = be k b -> a = b.
Proof. intros Ha Hb E. rewrite <- (unbe_be k a Ha), <- (unbe_be k b Hb), E. reflexivity. Qed.

Lemma unbe_bound l : wf_bytes l -> unbe l < 256 ^ N.of_nat (length l).
Proof.
  induction l as [|b l IH] using rev_ind; intros H.
  - unfold unbe. cbn. lia.
  - apply wf_bytes_app in H as [Hl Hb]. inversion Hb as [|? ? Hb' _]; subst. unfold wf_byte in Hb'.
    rewrite unbe_app, app_length. cbn [length]. rewrite Nat.add_1_r, Nnat.Nat2N.inj_succ, N.pow_succ_r'.
    specialize (IH Hl). lia.
Qed.

Lemma be_unbe l : wf_bytes l -> be (length l) (unbe l) = l.
Proof.
  induction l as [|b l IH] using rev_ind; intros H; [reflexivity|].
  apply wf_bytes_app in H as [Hl Hb]. inversion Hb as [|? ? Hb' _]; subst. unfold wf_byte in Hb'.
  rewrite unbe_app, app_length. cbn [length]. rewrite Nat.add_1_r. cbn [be].
  replace ((unbe l * 256 + b) / 256) with (unbe l) by lia.
  replace ((unbe l * 256 + b) mod 256) with b by lia.
  rewrite (IH Hl). reflexivity.
Qed.

(** Reading a [k]-octet big-endian integer off the front of a buffer. *)
Definition take_be (k : nat) (l : bytes) : option (N * bytes) :=
  if (length l <? k)%nat then None else Some (unbe (firstn k l), skipn k l).

Lemma take_be_app k n rest : n < 256 ^ N.of_nat k -> take_be k (be k n ++ rest) = Some (n, rest).
Proof.
  intros Hn. unfold take_be.
  (* all that is used of [be k n]: its length and its value *)
  generalize (be_length k n) (unbe_be k n Hn). generalize (be k n) as l.
  intros l <- <-. rewrite firstn_len_app, skipn_len_app, app_length.
  destruct (Nat.ltb_spec (length l + length rest) (length l)); [lia|reflexivity].
Qed.

Lemma take_be_sound k l n r :
  wf_bytes l -> take_be k l = Some (n, r) ->
  l = be k n ++ r /\ n < 256 ^ N.of_nat k /\ wf_bytes r.
Proof.
  intros Hwf. unfold take_be. destruct (Nat.ltb_spec (length l) k) as [Hl|Hl]; [discriminate|].
  intros E. injection E as <- <-.
  assert (Hlen : length (firstn k l) = k) by (rewrite firstn_length; lia).
  pose proof (wf_bytes_firstn k l Hwf) as Hf.
  split; [|split].
  - rewrite <- Hlen at 1. rewrite (be_unbe _ Hf). symmetry. apply firstn_skipn.
  - rewrite <- Hlen at 2. apply unbe_bound. exact Hf.
  - apply wf_bytes_skipn. exact Hwf.
Qed.

(** Compact octet-string literals for test vectors. *)
Definition unhex (len : nat) (n : N) : bytes := be len n.

(** [be] by shifts, for evaluating literals: [/] and [mod] walk the whole of
    [n] for every octet, [N.shiftr] and [N.land] touch eight bits.  Rewrite
    with [unhex_shift] before [vm_compute]. *)
Fixpoint be_shift (k : nat) (n : N) : bytes :=
  match k with
  | O => []
  | S k' => be_shift k' (N.shiftr n 8) ++ [N.land n 255]
  end.

Lemma unhex_shift k n : unhex k n = be_shift k n.
Proof.
  unfold unhex. revert n. induction k as [|k IH]; intros n; cbn [be be_shift]; [reflexivity|].
  rewrite <- IH, N.shiftr_div_pow2. change 255 with (N.ones 8). rewrite N.land_ones. reflexivity.
Qed.

(** Deterministic pseudo-random data shared with the Python harness
    (32-bit LCG; octet = bits 16..23 of the state). *)
Fixpoint mkdata_aux (len : nat) (st : N) : bytes :=
  match len with
  | O => []
  | S l => let st' := (st * 1103515245 + 12345) mod 4294967296 in
           ((st' / 65536) mod 256) :: mkdata_aux l st'
  end.
Definition mkdata (seed : N) (len : nat) : bytes := mkdata_aux len seed.

Lemma mkdata_aux_length len : forall st, length (mkdata_aux len st) = len.
Proof. induction len as [|l IH]; intros st; cbn [mkdata_aux]; [reflexivity|]. cbn [length]. rewrite IH. reflexivity. Qed.

Lemma mkdata_aux_wf len : forall st, wf_bytes (mkdata_aux len st).
Proof.
  induction len as [|l IH]; intros st; cbn [mkdata_aux]; [constructor|].
  constructor; [unfold wf_byte; lia | apply IH].
Qed.

Definition bytes_eqb (a b : bytes) : bool :=
  (length a =? length b)%nat && forallb (fun p => fst p =? snd p) (combine a b).

Lemma bytes_eqb_eq : forall a b, bytes_eqb a b = true <-> a = b.
Proof.
  unfold bytes_eqb. induction a as [|x a IH]; intros [|y b]; cbn; split; intros H; try reflexivity; try discriminate.
  - apply Bool.andb_true_iff in H as [Hl H]. apply Bool.andb_true_iff in H as [Hxy H].
    apply N.eqb_eq in Hxy. subst y. f_equal. apply IH. rewrite Hl. exact H.
  - inversion H; subst. rewrite Nat.eqb_refl, N.eqb_refl. cbn.
    pose proof (proj2 (IH b) eq_refl) as E. rewrite Nat.eqb_refl in E. exact E.
Qed.

Lemma bytes_eqb_refl a : bytes_eqb a a = true.
Proof. apply bytes_eqb_eq. reflexivity. Qed.

Lemma bytes_eqb_neq a b : a <> b -> bytes_eqb a b = false.
Proof. intros H. destruct (bytes_eqb a b) eqn:E; [|reflexivity]. apply bytes_eqb_eq in E. contradiction. Qed.
