(** A model of the CBOR (RFC 8949) subset that Python [cbor2.dumps] emits and
    [cbor2.loads] accepts for the data the DTN demo agent exchanges: unsigned
    and negative integers, octet and text strings, arrays, maps, tags and the
    simple values.  Definitions and small structural lemmas only; the theorems
    are in [Lib/CborProofs.v].

    What is modelled and what is not
    - [encode] always emits definite lengths and *shortest-form* heads, which
      is what [cbor2.dumps] does for ints, lengths and tags (whether or not
      [canonical=True]); map pairs are emitted in list order (no sorting).
    - [encode_indef_arr] is the indefinite-length array framing (0x9f .. 0xff)
      that BPv7 bundles use.
    - [decode] (= [decode_gen false]) accepts: any well-formed head, shortest
      form NOT required (cbor2 accepts non-shortest heads too); definite
      bstr/tstr/array/map/tag; simple values 0..23 in the one-octet form; and
      indefinite-length *arrays* (decoded to [CArr]).
      It rejects (returns [None]): octets >= 256, reserved additional-info
      values 28..30, indefinite-length bstr/tstr/maps (0x5f, 0x7f, 0xbf), a
      stray break 0xff, two-octet simple values (0xf8 xx), floats
      (0xf9..0xfb), truncated input, and running out of fuel.  Text strings are
      kept as octets; UTF-8 validity is not checked (cbor2 would).
    - [decode_strict] (= [decode_gen true]) additionally rejects every
      non-shortest head and indefinite-length arrays, i.e. accepts exactly
      the image of [encode].
    Fuel is consumed once per nesting level, so [depth v] (<= [size v] <=
    [length (encode v)]) is always enough. *)
From Coq Require Import List NArith ZArith Arith Bool Lia ZifyBool ZifyN ZifyNat.
From DTN Require Import Lib.Bytes.
Import ListNotations.
Local Open Scope N_scope.

(** * Data items *)

Inductive cbor : Type :=
| CUint (n : N)
| CNint (n : N)                     (* the integer -1-n *)
| CBstr (bs : bytes)
| CTstr (bs : bytes)                (* UTF-8 octets *)
| CArr (l : list cbor)
| CMap (kvs : list (cbor * cbor))
| CTag (t : N) (v : cbor)
| CSimple (n : N).                  (* 20 false, 21 true, 22 null, 23 undefined *)

(** Induction principle that goes through the nested lists. *)
Section CborInd.
  Variable P : cbor -> Prop.
  Hypothesis HUint : forall n, P (CUint n).
  Hypothesis HNint : forall n, P (CNint n).
  Hypothesis HBstr : forall bs, P (CBstr bs).
  Hypothesis HTstr : forall bs, P (CTstr bs).
  Hypothesis HArr : forall l, Forall P l -> P (CArr l).
  Hypothesis HMap : forall kvs, Forall (fun kv => P (fst kv) /\ P (snd kv)) kvs -> P (CMap kvs).
  Hypothesis HTag : forall t v, P v -> P (CTag t v).
  Hypothesis HSimple : forall n, P (CSimple n).

  Fixpoint cbor_ind' (v : cbor) : P v :=
    match v with
    | CUint n => HUint n
    | CNint n => HNint n
    | CBstr bs => HBstr bs
    | CTstr bs => HTstr bs
    | CArr l =>
        HArr l ((fix go (l : list cbor) : Forall P l :=
                   match l with
                   | [] => Forall_nil _
                   | x :: t => Forall_cons x (cbor_ind' x) (go t)
                   end) l)
    | CMap kvs =>
        HMap kvs ((fix go (l : list (cbor * cbor)) : Forall (fun kv => P (fst kv) /\ P (snd kv)) l :=
                     match l with
                     | [] => Forall_nil _
                     | kv :: t =>
                         Forall_cons kv
                           (match kv as p return P (fst p) /\ P (snd p) with
                            | (k, w) => conj (cbor_ind' k) (cbor_ind' w)
                            end) (go t)
                     end) kvs)
    | CTag t w => HTag t w (cbor_ind' w)
    | CSimple n => HSimple n
    end.
End CborInd.

(** * Heads *)

Notation two64 := 18446744073709551616%N (only parsing).

(** Initial octet plus argument, shortest form (for [n < 2^64]; larger [n] are
    truncated to 8 octets and are excluded by [wf]). *)
Definition head (major n : N) : bytes :=
  if n <? 24 then [major * 32 + n]
  else if n <? 256 then (major * 32 + 24) :: be 1 n
  else if n <? 65536 then (major * 32 + 25) :: be 2 n
  else if n <? 4294967296 then (major * 32 + 26) :: be 4 n
  else (major * 32 + 27) :: be 8 n.

Definition head_len (n : N) : nat :=
  if n <? 24 then 1%nat
  else if n <? 256 then 2%nat
  else if n <? 65536 then 3%nat
  else if n <? 4294967296 then 5%nat
  else 9%nat.

(** * Encoder *)

Fixpoint encode (v : cbor) : bytes :=
  match v with
  | CUint n => head 0 n
  | CNint n => head 1 n
  | CBstr bs => head 2 (N.of_nat (length bs)) ++ bs
  | CTstr bs => head 3 (N.of_nat (length bs)) ++ bs
  | CArr l => head 4 (N.of_nat (length l)) ++ concat (map encode l)
  | CMap kvs =>
      head 5 (N.of_nat (length kvs)) ++
      concat (map (fun kv => encode (fst kv) ++ encode (snd kv)) kvs)
  | CTag t w => head 6 t ++ encode w
  | CSimple n => head 7 n
  end.

(** A CBOR sequence (RFC 8742): plain concatenation. *)
Definition encode_seq (l : list cbor) : bytes := concat (map encode l).

Definition encode_kv (kv : cbor * cbor) : bytes := encode (fst kv) ++ encode (snd kv).
Definition encode_pairs (kvs : list (cbor * cbor)) : bytes := concat (map encode_kv kvs).

(** Indefinite-length array framing (BPv7 bundles). *)
Definition encode_indef_arr (l : list cbor) : bytes := 159 :: encode_seq l ++ [255].

Lemma encode_CArr l : encode (CArr l) = head 4 (N.of_nat (length l)) ++ encode_seq l.
Proof. reflexivity. Qed.

Lemma encode_CMap kvs : encode (CMap kvs) = head 5 (N.of_nat (length kvs)) ++ encode_pairs kvs.
Proof. reflexivity. Qed.

Lemma encode_seq_nil : encode_seq [] = [].
Proof. reflexivity. Qed.

Lemma encode_seq_cons x l : encode_seq (x :: l) = encode x ++ encode_seq l.
Proof. reflexivity. Qed.

Lemma encode_seq_app a b : encode_seq (a ++ b) = encode_seq a ++ encode_seq b.
Proof. unfold encode_seq. rewrite map_app, concat_app. reflexivity. Qed.

Lemma encode_pairs_nil : encode_pairs [] = [].
Proof. reflexivity. Qed.

Lemma encode_pairs_cons k w l : encode_pairs ((k, w) :: l) = encode k ++ encode w ++ encode_pairs l.
Proof. unfold encode_pairs, encode_kv. cbn [map concat fst snd]. rewrite app_assoc. reflexivity. Qed.

(** * Well-formedness, depth, size *)

Fixpoint wf (v : cbor) : Prop :=
  match v with
  | CUint n => n < two64
  | CNint n => n < two64
  | CBstr bs => N.of_nat (length bs) < two64 /\ wf_bytes bs
  | CTstr bs => N.of_nat (length bs) < two64 /\ wf_bytes bs
  | CArr l => N.of_nat (length l) < two64 /\ fold_right (fun x acc => wf x /\ acc) True l
  | CMap kvs =>
      N.of_nat (length kvs) < two64 /\
      fold_right (fun kv acc => (wf (fst kv) /\ wf (snd kv)) /\ acc) True kvs
  | CTag t w => t < two64 /\ wf w
  | CSimple n => n < 24
  end.

Fixpoint wfb (v : cbor) : bool :=
  match v with
  | CUint n => n <? two64
  | CNint n => n <? two64
  | CBstr bs => (N.of_nat (length bs) <? two64) && wf_bytesb bs
  | CTstr bs => (N.of_nat (length bs) <? two64) && wf_bytesb bs
  | CArr l => (N.of_nat (length l) <? two64) && forallb wfb l
  | CMap kvs =>
      (N.of_nat (length kvs) <? two64) && forallb (fun kv => wfb (fst kv) && wfb (snd kv)) kvs
  | CTag t w => (t <? two64) && wfb w
  | CSimple n => n <? 24
  end.

(** [wf] (like [depth] and [size]) goes through the item lists by [fold_right],
    which keeps the nested recursion structural; these give the [Forall] form. *)
Lemma fold_right_and_Forall {A} (Q : A -> Prop) l :
  fold_right (fun x acc => Q x /\ acc) True l <-> Forall Q l.
Proof.
  induction l as [|x l IH]; cbn [fold_right].
  - split; intros _; constructor.
  - rewrite IH. split.
    + intros [Hx Hl]. constructor; assumption.
    + intros H. inversion H; subst. split; assumption.
Qed.

Lemma wf_CArr l : wf (CArr l) <-> N.of_nat (length l) < two64 /\ Forall wf l.
Proof. cbn [wf]. rewrite fold_right_and_Forall. reflexivity. Qed.

Lemma wf_CMap kvs :
  wf (CMap kvs) <-> N.of_nat (length kvs) < two64 /\ Forall (fun kv => wf (fst kv) /\ wf (snd kv)) kvs.
Proof. cbn [wf]. rewrite (fold_right_and_Forall (fun kv => wf (fst kv) /\ wf (snd kv))). reflexivity. Qed.

Lemma wf_CTag t w : wf (CTag t w) <-> t < two64 /\ wf w.
Proof. reflexivity. Qed.

Lemma wfb_spec v : wfb v = true <-> wf v.
Proof.
  induction v as [n|n|bs|bs|l IH|kvs IH|t w IH|n] using cbor_ind'.
  - cbn [wfb wf]. lia.
  - cbn [wfb wf]. lia.
  - cbn [wfb wf]. rewrite andb_true_iff, wf_bytesb_spec, N.ltb_lt. reflexivity.
  - cbn [wfb wf]. rewrite andb_true_iff, wf_bytesb_spec, N.ltb_lt. reflexivity.
  - rewrite wf_CArr. cbn [wfb]. rewrite andb_true_iff, forallb_forall, Forall_forall.
    rewrite Forall_forall in IH. split; intros [Hl H]; (split; [lia|]); intros x Hx; apply (IH x Hx), H, Hx.
  - rewrite wf_CMap. cbn [wfb]. rewrite andb_true_iff, forallb_forall, Forall_forall.
    rewrite Forall_forall in IH. split; intros [Hl H]; (split; [lia|]); intros kv Hkv;
      specialize (H kv Hkv); destruct (IH kv Hkv) as [IHk IHw].
    + apply andb_true_iff in H as [Hk Hw]. split; [apply IHk, Hk | apply IHw, Hw].
    + destruct H as [Hk Hw]. apply andb_true_iff. split; [apply IHk, Hk | apply IHw, Hw].
  - cbn [wfb wf]. rewrite andb_true_iff, IH, N.ltb_lt. reflexivity.
  - cbn [wfb wf]. lia.
Qed.

(** Nesting depth: the fuel [decode] needs. *)
Fixpoint depth (v : cbor) : nat :=
  match v with
  | CArr l => S (fold_right (fun x acc => Nat.max (depth x) acc) O l)
  | CMap kvs => S (fold_right (fun kv acc => Nat.max (Nat.max (depth (fst kv)) (depth (snd kv))) acc) O kvs)
  | CTag _ w => S (depth w)
  | _ => 1%nat
  end.

(** Number of nodes: a coarser fuel bound ([depth v <= size v]). *)
Fixpoint size (v : cbor) : nat :=
  match v with
  | CArr l => S (fold_right (fun x acc => (size x + acc)%nat) O l)
  | CMap kvs => S (fold_right (fun kv acc => (size (fst kv) + size (snd kv) + acc)%nat) O kvs)
  | CTag _ w => S (size w)
  | _ => 1%nat
  end.

(** * Decoder *)

(** Number of argument octets selected by the additional-info field. *)
Definition info_width (info : N) : option nat :=
  if info =? 24 then Some 1%nat
  else if info =? 25 then Some 2%nat
  else if info =? 26 then Some 4%nat
  else if info =? 27 then Some 8%nat
  else None.

(** [decode_head bs = Some (major, argument, octets consumed, rest)].
    Non-shortest arguments are accepted here.  Additional info 28..31 is
    rejected (31 = indefinite/break is handled by the caller). *)
Definition decode_head (bs : bytes) : option (N * N * nat * bytes) :=
  match bs with
  | [] => None
  | b :: tl =>
      if 256 <=? b then None
      else
        let m := b / 32 in
        let info := b mod 32 in
        if info <? 24 then Some (m, info, 1%nat, tl)
        else match info_width info with
             | None => None
             | Some k =>
                 match take_be k tl with
                 | None => None
                 | Some (n, rest) => Some (m, n, S k, rest)
                 end
             end
  end.

(** Shortest-form test used by the strict decoder: the octets consumed are
    exactly [head m n]. *)
Definition head_okb (strict : bool) (bs : bytes) (m n : N) (c : nat) : bool :=
  if strict then bytes_eqb (firstn c bs) (head m n) else true.

(** [take_n n bs]: split off [n] octets (comparison done in [N] so that a huge
    announced length never gets converted to [nat]). *)
Definition take_n (n : N) (bs : bytes) : option (bytes * bytes) :=
  if N.of_nat (length bs) <? n then None
  else Some (firstn (N.to_nat n) bs, skipn (N.to_nat n) bs).

Definition indef_start (bs : bytes) : option bytes :=
  match bs with
  | b :: tl => if b =? 159 then Some tl else None
  | [] => None
  end.

Section Items.
  Variable dec : bytes -> option (cbor * bytes).

  (** exactly [n] items *)
  Fixpoint dec_items (n : nat) (bs : bytes) : option (list cbor * bytes) :=
    match n with
    | O => Some ([], bs)
    | S n' =>
        match dec bs with
        | None => None
        | Some (v, rest) =>
            match dec_items n' rest with
            | None => None
            | Some (l, rest') => Some (v :: l, rest')
            end
        end
    end.

  (** exactly [n] key/value pairs *)
  Fixpoint dec_pairs (n : nat) (bs : bytes) : option (list (cbor * cbor) * bytes) :=
    match n with
    | O => Some ([], bs)
    | S n' =>
        match dec bs with
        | None => None
        | Some (k, rest) =>
            match dec rest with
            | None => None
            | Some (w, rest') =>
                match dec_pairs n' rest' with
                | None => None
                | Some (l, rest'') => Some ((k, w) :: l, rest'')
                end
            end
        end
    end.

  (** items up to the break octet 0xff; [cnt] bounds the number of loop
      iterations (the caller passes the buffer length, which is never
      exhausted because every item consumes at least one octet). *)
  Fixpoint dec_until_break (cnt : nat) (bs : bytes) : option (list cbor * bytes) :=
    match cnt with
    | O => None
    | S cnt' =>
        match bs with
        | [] => None
        | b :: tl =>
            if b =? 255 then Some ([], tl)
            else match dec bs with
                 | None => None
                 | Some (v, rest) =>
                     match dec_until_break cnt' rest with
                     | None => None
                     | Some (l, rest') => Some (v :: l, rest')
                     end
                 end
        end
    end.

  (** a whole buffer as a CBOR sequence *)
  Fixpoint dec_seq (cnt : nat) (bs : bytes) : option (list cbor) :=
    match bs with
    | [] => Some []
    | _ :: _ =>
        match cnt with
        | O => None
        | S cnt' =>
            match dec bs with
            | None => None
            | Some (v, rest) =>
                match dec_seq cnt' rest with
                | None => None
                | Some l => Some (v :: l)
                end
            end
        end
    end.

  (** What follows a head [(m, n)] that consumed [c] octets. *)
  Definition dispatch (m n : N) (c : nat) (rest : bytes) : option (cbor * bytes) :=
    match m with
    | 0 => Some (CUint n, rest)
    | 1 => Some (CNint n, rest)
    | 2 => match take_n n rest with
           | None => None
           | Some (s, rest') => Some (CBstr s, rest')
           end
    | 3 => match take_n n rest with
           | None => None
           | Some (s, rest') => Some (CTstr s, rest')
           end
    | 4 => (* every item takes at least one octet: reject early, so that a
              huge announced count is never converted to [nat] *)
           if N.of_nat (length rest) <? n then None
           else match dec_items (N.to_nat n) rest with
                | None => None
                | Some (l, rest') => Some (CArr l, rest')
                end
    | 5 => if N.of_nat (length rest) <? 2 * n then None
           else match dec_pairs (N.to_nat n) rest with
                | None => None
                | Some (l, rest') => Some (CMap l, rest')
                end
    | 6 => match dec rest with
           | None => None
           | Some (w, rest') => Some (CTag n w, rest')
           end
    | 7 => (* one-octet simple values only; 0xf8.., floats and break rejected *)
           if (c =? 1)%nat then Some (CSimple n, rest) else None
    | _ => None
    end.

  (** One decoding step, given the decoder [dec] for nested items. *)
  Definition step (strict : bool) (bs : bytes) : option (cbor * bytes) :=
    match (if strict then None else indef_start bs) with
    | Some tl =>
        match dec_until_break (length tl) tl with
        | None => None
        | Some (l, rest) => Some (CArr l, rest)
        end
    | None =>
        match decode_head bs with
        | None => None
        | Some (m, n, c, rest) =>
            if head_okb strict bs m n c then dispatch m n c rest else None
        end
    end.
End Items.

Fixpoint decode_gen (strict : bool) (fuel : nat) (bs : bytes) {struct fuel} : option (cbor * bytes) :=
  match fuel with
  | O => None
  | S f => step (decode_gen strict f) strict bs
  end.

(** The permissive decoder (what [cbor2.loads] accepts, on the modelled subset). *)
Definition decode (fuel : nat) (bs : bytes) : option (cbor * bytes) := decode_gen false fuel bs.

(** The strict decoder: shortest heads and definite lengths only. *)
Definition decode_strict (fuel : nat) (bs : bytes) : option (cbor * bytes) := decode_gen true fuel bs.

(** The whole buffer as a CBOR sequence; [fuel] is the per-item fuel. *)
Definition decode_seq (fuel : nat) (bs : bytes) : option (list cbor) :=
  dec_seq (decode fuel) (length bs) bs.

Definition decode_seq_strict (fuel : nat) (bs : bytes) : option (list cbor) :=
  dec_seq (decode_strict fuel) (length bs) bs.

(** Exactly one item and nothing after it. *)
Definition decode_all (fuel : nat) (bs : bytes) : option cbor :=
  match decode fuel bs with
  | Some (v, []) => Some v
  | _ => None
  end.

Lemma decode_gen_S strict f bs : decode_gen strict (S f) bs = step (decode_gen strict f) strict bs.
Proof. reflexivity. Qed.

(** * Structural lemmas about depth and size *)

Lemma depth_pos v : (1 <= depth v)%nat.
Proof. destruct v; cbn [depth]; lia. Qed.

Lemma depth_CArr_In l x : In x l -> (depth x < depth (CArr l))%nat.
Proof.
  cbn [depth]. induction l as [|y l IH]; intros Hin; [destruct Hin|].
  cbn [fold_right]. destruct Hin as [->|Hin]; [lia|]. specialize (IH Hin). lia.
Qed.

Lemma depth_CMap_In kvs k w : In (k, w) kvs -> (depth k < depth (CMap kvs) /\ depth w < depth (CMap kvs))%nat.
Proof.
  cbn [depth]. induction kvs as [|y l IH]; intros Hin; [destruct Hin|].
  cbn [fold_right]. destruct Hin as [->|Hin]; [cbn [fst snd]; lia|]. specialize (IH Hin). lia.
Qed.

Lemma depth_le_size v : (depth v <= size v)%nat.
Proof.
  induction v as [n|n|bs|bs|l IH|kvs IH|t w IH|n] using cbor_ind'; cbn [depth size]; try lia.
  - apply le_n_S. induction IH as [|x l Hx _ IHl]; cbn [fold_right]; lia.
  - apply le_n_S. induction IH as [|x l [Hk Hw] _ IHl]; cbn [fold_right]; lia.
Qed.
