(** TCPCL endpoint model: what handling one received frame does, field by field. *)
From Coq Require Import NArith List Bool Lia.
From RecordUpdate Require Import RecordSet.
From DTN Require Import Lib.Bytes Model.TcpclMsg Model.TcpclSess Proofs.TcpclSessBasics Proofs.TcpclSentProofs1.
From DTN Require Import Proofs.TcpclSessSpec.
Import ListNotations RecordSetNotations.
Local Open Scope N_scope.

Definition is_init (m : msg) : bool := match m with MSessInit _ _ _ _ _ => true | _ => false end.
Definition is_term (m : msg) : bool := match m with MSessTerm _ _ => true | _ => false end.

(** The SESS_TERM [send_sess_term] emits, if any. *)
Definition out_term (reason : N) (reply : bool) (s : ep) : list frame :=
  if in_sess s && negb (in_term s) then [FMsg (MSessTerm (if reply then 1 else 0) reason)] else [].

(** The data accumulated for the transfer a segment belongs to, if it is acceptable. *)
Definition seg_acc (flags xid : N) (data : bytes) (s : ep) : option bytes :=
  if has_start flags then Some data
  else match rx_tmp s with
       | Some (cur, acc) => if cur =? xid then Some (acc ++ data) else None
       | None => None
       end.

Definition rej (m : msg) : list frame := [FMsg (MReject (msg_id m) REJ_UNEXPECTED)].

(** Frames sent while handling message [m] in state [s]. *)
Definition out_msg (m : msg) (s : ep) : list frame :=
  match m with
  | MSessInit _ _ _ _ _ => if c_passive (cf s) then [FMsg (sess_init_msg (cf s))] else []
  | MSessTerm _ reason => if in_sess s then out_term reason true s else rej m
  | MXferSeg flags xid _ data =>
      if in_sess s then
        match seg_acc flags xid data s with
        | Some acc => [FMsg (MXferAck flags xid (N.of_nat (length acc)))]
        | None => rej m
        end
      else rej m
  | MXferAck flags xid _ =>
      if in_sess s then
        match dict_get xid (tx_map s) with
        | None => rej m
        | Some _ => if has_end flags && negb (mem_N xid (pend_ack s)) then rej m else []
        end
      else rej m
  | MXferRefuse _ xid =>
      if in_sess s then match dict_get xid (tx_map s) with None => rej m | Some _ => [] end
      else rej m
  | MKeepalive | MReject _ _ => []
  end.

Lemma sent_and_msg_tx_recv_msg m s :
  sent (fst (recv_frame (FMsg m) s)) = sent s ++ out_msg m s
  /\ msg_tx (fst (recv_frame (FMsg m) s)) = msg_tx s ++ concat (map encode_frame (out_msg m s)).
Proof.
  rewrite recv_msg_pr. destruct (handle_msg_spec m s); spec_cases; ep_cbn;
    unfold out_msg, out_term, seg_acc, rej; rw_hyps; cbn [andb negb map concat app];
    rewrite ?app_nil_r; split; reflexivity.
Qed.

Lemma sent_recv_msg m s : sent (fst (recv_frame (FMsg m) s)) = sent s ++ out_msg m s.
Proof. apply sent_and_msg_tx_recv_msg. Qed.

Lemma cf_recv_frame f s : cf (fst (recv_frame f s)) = cf s.
Proof. apply frame_keeps. Qed.
Lemma handled_recv_frame f s : handled (fst (recv_frame f s)) = handled s.
Proof. apply frame_keeps. Qed.

Lemma same_recv_frame f s :
  wire (fst (recv_frame f s)) = wire s /\ conn_tx (fst (recv_frame f s)) = conn_tx s
  /\ next_id (fst (recv_frame f s)) = next_id s.
Proof. frame_cases f s; ep_cbn; repeat split. Qed.

Lemma flags_recv_msg m s :
  in_conn (fst (recv_frame (FMsg m) s)) = in_conn s
  /\ conhead_this (fst (recv_frame (FMsg m) s)) = conhead_this s
  /\ in_sess (fst (recv_frame (FMsg m) s)) = in_sess s || is_init m
  /\ in_term (fst (recv_frame (FMsg m) s)) = in_term s || (is_term m && in_sess s).
Proof.
  rewrite recv_msg_pr. destruct (handle_msg_spec m s); spec_cases; ep_cbn; cbn [is_init is_term];
    rw_hyps; cbn [andb]; rewrite ?orb_false_r, ?orb_true_r; repeat split.
Qed.

Lemma in_conn_recv_msg m s : in_conn (fst (recv_frame (FMsg m) s)) = in_conn s.
Proof. apply flags_recv_msg. Qed.
Lemma conhead_this_recv_msg m s : conhead_this (fst (recv_frame (FMsg m) s)) = conhead_this s.
Proof. apply flags_recv_msg. Qed.
Lemma in_sess_recv_msg m s : in_sess (fst (recv_frame (FMsg m) s)) = in_sess s || is_init m.
Proof. apply flags_recv_msg. Qed.
Lemma in_term_recv_msg m s : in_term (fst (recv_frame (FMsg m) s)) = in_term s || (is_term m && in_sess s).
Proof. apply flags_recv_msg. Qed.

Lemma sessinit_peer_recv_msg m s : sessinit_peer (fst (recv_frame (FMsg m) s)) =
  match m with MSessInit ka smru xmru nid _ => Some (mkSI ka smru xmru nid) | _ => sessinit_peer s end.
Proof. rewrite recv_msg_pr. destruct (handle_msg_spec m s); spec_cases; reflexivity. Qed.

(** Whether the merge of the session settings after a SESS_INIT goes through. *)
Definition init_ok (nodeid : bytes) (s : ep) : bool :=
  (c_passive (cf s) || match sessinit_this s with Some _ => true | None => false end) && ascii nodeid.

Lemma seg_size_recv_msg m s : seg_size (fst (recv_frame (FMsg m) s)) =
  match m with
  | MSessInit _ smru _ nid _ => if init_ok nid s then N.min (c_seg_init (cf s)) smru else seg_size s
  | _ => seg_size s
  end.
Proof.
  rewrite recv_msg_pr. destruct (handle_msg_spec m s); spec_cases; ep_cbn; unfold init_ok; rw_hyps;
    cbn [andb orb]; rewrite ?andb_false_r; reflexivity.
Qed.

Lemma keepalive_time_recv_msg m s : is_init m = false ->
  keepalive_time (fst (recv_frame (FMsg m) s)) = keepalive_time s.
Proof.
  intros Hm. rewrite recv_msg_pr. destruct (handle_msg_spec m s); try discriminate Hm; spec_cases; reflexivity.
Qed.

Lemma rx_tmp_recv_msg m s : rx_tmp (fst (recv_frame (FMsg m) s)) =
  match m with
  | MXferSeg fl xid _ data =>
      if in_sess s then
        match seg_acc fl xid data s with
        | Some acc => if has_end fl then None else Some (xid, acc)
        | None => rx_tmp s
        end
      else rx_tmp s
  | _ => rx_tmp s
  end.
Proof.
  rewrite recv_msg_pr. destruct (handle_msg_spec m s); spec_cases; ep_cbn; unfold seg_acc; rw_hyps;
    reflexivity.
Qed.

(** A message leaves the transfer in progress and its offset alone, or ends it. *)
Lemma tx_recv_msg m s :
  (tx_tmp (fst (recv_frame (FMsg m) s)) = tx_tmp s /\ tx_len (fst (recv_frame (FMsg m) s)) = tx_len s)
  \/ tx_tmp (fst (recv_frame (FMsg m) s)) = None.
Proof. rewrite recv_msg_pr. destruct (handle_msg_spec m s); spec_cases; ep_cbn; auto. Qed.

Lemma state_recv_frame f s : state (fst (recv_frame f s)) = ST_CONNECTING -> state s = ST_CONNECTING.
Proof.
  frame_cases f s; ep_cbn; auto; discriminate.
Qed.

Lemma ka_armed (k due : N) : (if 0 <? k then Some due else None) <> None -> k <> 0.
Proof. destruct (N.ltb_spec 0 k); [lia|congruence]. Qed.

Lemma ka_due_recv_frame f s : (ka_due s <> None -> keepalive_time s <> 0) ->
  ka_due (fst (recv_frame f s)) <> None -> keepalive_time (fst (recv_frame f s)) <> 0.
Proof.
  intros H. frame_cases f s; ep_cbn; try destruct (cst6 _ _ _ _ _ _ _); try exact H; try congruence; apply ka_armed.
Qed.

Definition tls_close (s : ep) : bool := match c_require_tls (cf s) with Some true => true | _ => false end.
Definition ch_proceed (c : contact) (s : ep) : bool :=
  contact_ok c && (c_passive (cf s) || match conhead_this s with Some _ => true | None => false end).
Definition our_contact : frame := FContact (mkContact MAGIC 4 0).

Definition out_contact (c : contact) (s : ep) : list frame :=
  if contact_ok c then
    (if c_passive (cf s) then [our_contact] else [])
    ++ (if ch_proceed c s && negb (tls_close s) && negb (c_passive (cf s)) then [FMsg (sess_init_msg (cf s))] else [])
  else [].

Lemma tls_close_true s : c_require_tls (cf s) = Some true -> tls_close s = true.
Proof. intros H. unfold tls_close. rewrite H. reflexivity. Qed.

Lemma tls_close_false s : c_require_tls (cf s) <> Some true -> tls_close s = false.
Proof. intros H. unfold tls_close. destruct (c_require_tls (cf s)) as [[|]|]; congruence. Qed.

(** A case of [rc_spec] decides the conditions of [out_contact], [ch_proceed], [tls_close]. *)
Ltac rc_leaf :=
  unfold out_contact, ch_proceed; rewrite ?tls_close_true, ?tls_close_false by assumption; rw_hyps;
  cbn [andb orb negb app map concat]; rewrite ?orb_false_r, ?orb_true_r, ?app_nil_r.

Lemma sent_and_msg_tx_recv_contact c s :
  sent (fst (recv_frame (FContact c) s)) = sent s ++ out_contact c s
  /\ msg_tx (fst (recv_frame (FContact c) s)) = msg_tx s ++ concat (map encode_frame (out_contact c s)).
Proof. destruct (recv_contact_spec c s); ep_cbn; rc_leaf; rewrite <- ?app_assoc; split; reflexivity. Qed.

Lemma sent_recv_contact c s : sent (fst (recv_frame (FContact c) s)) = sent s ++ out_contact c s.
Proof. apply sent_and_msg_tx_recv_contact. Qed.

Lemma in_conn_recv_contact c s : in_conn (fst (recv_frame (FContact c) s)) = in_conn s || ch_proceed c s.
Proof. destruct (recv_contact_spec c s); ep_cbn; rc_leaf; reflexivity. Qed.

Lemma conhead_this_recv_contact c s : conhead_this (fst (recv_frame (FContact c) s)) =
  if contact_ok c && c_passive (cf s) then Some 0 else conhead_this s.
Proof. destruct (recv_contact_spec c s); ep_cbn; rc_leaf; reflexivity. Qed.

Lemma same_recv_contact c s :
  in_sess (fst (recv_frame (FContact c) s)) = in_sess s /\ in_term (fst (recv_frame (FContact c) s)) = in_term s
  /\ sessinit_peer (fst (recv_frame (FContact c) s)) = sessinit_peer s
  /\ seg_size (fst (recv_frame (FContact c) s)) = seg_size s
  /\ keepalive_time (fst (recv_frame (FContact c) s)) = keepalive_time s
  /\ tx_tmp (fst (recv_frame (FContact c) s)) = tx_tmp s /\ tx_len (fst (recv_frame (FContact c) s)) = tx_len s
  /\ rx_tmp (fst (recv_frame (FContact c) s)) = rx_tmp s.
Proof. destruct (recv_contact_spec c s); ep_cbn; repeat split. Qed.

Lemma in_sess_recv_contact c s : in_sess (fst (recv_frame (FContact c) s)) = in_sess s.
Proof. apply same_recv_contact. Qed.
Lemma in_term_recv_contact c s : in_term (fst (recv_frame (FContact c) s)) = in_term s.
Proof. apply same_recv_contact. Qed.
Lemma sessinit_peer_recv_contact c s : sessinit_peer (fst (recv_frame (FContact c) s)) = sessinit_peer s.
Proof. apply same_recv_contact. Qed.
Lemma seg_size_recv_contact c s : seg_size (fst (recv_frame (FContact c) s)) = seg_size s.
Proof. apply same_recv_contact. Qed.
Lemma keepalive_time_recv_contact c s : keepalive_time (fst (recv_frame (FContact c) s)) = keepalive_time s.
Proof. apply same_recv_contact. Qed.
Lemma tx_tmp_recv_contact c s : tx_tmp (fst (recv_frame (FContact c) s)) = tx_tmp s.
Proof. apply same_recv_contact. Qed.
Lemma tx_len_recv_contact c s : tx_len (fst (recv_frame (FContact c) s)) = tx_len s.
Proof. apply same_recv_contact. Qed.
Lemma rx_tmp_recv_contact c s : rx_tmp (fst (recv_frame (FContact c) s)) = rx_tmp s.
Proof. apply same_recv_contact. Qed.

Ltac app_ex_tac :=
  first [ exists []; rewrite app_nil_r; reflexivity
        | rewrite <- ?app_assoc; eexists; reflexivity ].

(** Goal [exists t, T = trace s ++ t] where [T] is [trace s] with pieces
    appended under conditions. *)
Ltac ext_leaf := repeat match goal with |- context [if ?b then _ else _] => destruct b end; app_ex_tac.

Lemma trace_recv_frame f s : exists t, trace (fst (recv_frame f s)) = trace s ++ t.
Proof. frame_cases f s; ep_cbn; ext_leaf. Qed.

Lemma rx_buf_next_id_recv_frame f s :
  rx_buf (fst (recv_frame f s)) = rx_buf s /\ next_id (fst (recv_frame f s)) = next_id s.
Proof. split; [apply frame_keeps|apply same_recv_frame]. Qed.

(** What handling a frame does to the queue of unstarted transfers: a close
    or a SESS_TERM empties it, XFER_REFUSE takes one transfer out. *)
Lemma pend_start_recv_frame_cases f s :
  let p := pend_start (fst (recv_frame f s)) in
  p = pend_start s \/ p = [] \/ exists k, p = dict_del k (pend_start s).
Proof.
  cbv zeta. destruct f as [c|m]; [destruct (recv_contact_spec c s); ep_cbn; try destruct (closed s); auto|].
  rewrite recv_msg_pr. destruct (handle_msg_spec m s); spec_cases; ep_cbn; eauto.
Qed.

Lemma pend_start_recv_frame (P : N * bytes -> Prop) f s :
  Forall P (pend_start s) -> Forall P (pend_start (fst (recv_frame f s))).
Proof.
  intros H. destruct (pend_start_recv_frame_cases f s) as [E|[E|[k E]]]; rewrite E;
    [exact H|constructor|apply dict_del_Forall, H].
Qed.

Lemma tx_tmp_recv_frame f s it : tx_tmp (fst (recv_frame f s)) = Some it -> tx_tmp s = Some it.
Proof. frame_cases f s; ep_cbn; intros E; first [exact E | discriminate E]. Qed.

