(** Generic stream framing: the receive loop of [Messenger.recv_raw] over an
    abstract probe and an abstract handler.

    [loop] is the [while self.__rx_buf:] loop: stop on an empty buffer; probe
    the buffer in the phase the handler state is in; "partial" ([None]) leaves
    state and buffer untouched; a complete frame is handed to the handler and
    the loop continues on the octets the probe left over; the loop also stops
    as soon as the handler has closed the connection ([alive s = false]).
    [recv] is one call of [recv_raw(chunk)] ("always append", then loop).

    From two contract properties of the probe
      [probe_shrinks] a complete frame consumes at least one octet
      [probe_stable]  a decision taken on a buffer is not changed by octets
                      that arrive later (in either phase)
    the loop is split-invariant for EVERY octet stream (valid or not) and
    EVERY handler: [split_invariance].

    With an encoder that the probe inverts ([probe_encode]) and whose strict
    prefixes the probe leaves alone ([probe_prefix]) the loop handles exactly
    the frames of a well-formed stream, each one in the read that delivers its
    final octet: [stream_theorem], [stream_cut], [stream_any_cut]. *)
From Coq Require Import List Lia.
Import ListNotations.

Section Framing.
  Variable byte : Type.
  Variable St : Type.                 (* handler state *)
  Variable frame : Type.
  Variable phase : St -> bool.
  Variable alive : St -> bool.        (* the connection is still open *)
  Variable probe : bool -> list byte -> option (frame * list byte).
  Variable handle : St -> frame -> St.

  Hypothesis probe_shrinks : forall ph b f r, probe ph b = Some (f, r) -> length r < length b.
  Hypothesis probe_stable : forall ph b e f r, probe ph b = Some (f, r) -> probe ph (b ++ e) = Some (f, r ++ e).

  Fixpoint loop (fuel : nat) (s : St) (buf : list byte) : St * list byte :=
    match fuel with
    | O => (s, buf)
    | S fuel' =>
      match buf with
      | [] => (s, buf)
      | _ :: _ =>
        if alive s then
          match probe (phase s) buf with
          | None => (s, buf)
          | Some (f, r) => loop fuel' (handle s f) r
          end
        else (s, buf)
      end
    end.

  Definition recv (st : St * list byte) (chunk : list byte) : St * list byte :=
    loop (S (length (snd st ++ chunk))) (fst st) (snd st ++ chunk).

  (** More fuel than octets is always enough, so the amount does not matter. *)
  Lemma loop_fuel : forall f1 f2 s buf,
    length buf < f1 -> length buf < f2 -> loop f1 s buf = loop f2 s buf.
  Proof.
    induction f1 as [|f1 IH]; intros f2 s buf H1 H2; [lia|].
    destruct f2 as [|f2]; [lia|]. cbn [loop].
    destruct buf as [|x buf]; [reflexivity|].
    destruct (alive s); [|reflexivity].
    destruct (probe (phase s) (x :: buf)) as [[f r]|] eqn:P; [|reflexivity].
    pose proof (probe_shrinks _ _ _ _ P) as L.
    apply IH; lia.
  Qed.

  Lemma recv_complete : forall s buf f r,
    alive s = true -> probe (phase s) buf = Some (f, r) -> recv (s, []) buf = recv (handle s f, []) r.
  Proof.
    intros s buf f r AL P. pose proof (probe_shrinks _ _ _ _ P) as L.
    unfold recv. cbn [fst snd app]. destruct buf as [|x buf]; [inversion L|].
    rewrite (loop_fuel (S (length r)) (length (x :: buf))) by lia.
    cbn [loop]. rewrite AL, P. reflexivity.
  Qed.

  Lemma recv_partial : forall s buf, probe (phase s) buf = None -> recv (s, []) buf = (s, buf).
  Proof.
    intros s buf P. unfold recv. cbn [fst snd app]. cbn [loop].
    destruct buf; [reflexivity|]. rewrite P. destruct (alive s); reflexivity.
  Qed.

  (** Octets appended to the buffer only matter once the loop has stopped. *)
  Lemma loop_app : forall fuel s buf ext s' r,
    length buf < fuel -> loop fuel s buf = (s', r) ->
    loop (S (length (buf ++ ext))) s (buf ++ ext) = loop (S (length (r ++ ext))) s' (r ++ ext).
  Proof.
    induction fuel as [|fuel IH]; intros s buf ext s' r Hf E; [lia|].
    cbn [loop] in E. destruct buf as [|x buf].
    - inversion E; subst. reflexivity.
    - destruct (alive s) eqn:A; [|inversion E; subst; reflexivity].
      destruct (probe (phase s) (x :: buf)) as [[f r1]|] eqn:P.
      + pose proof (probe_shrinks _ _ _ _ P) as L.
        pose proof (probe_stable _ _ ext _ _ P) as P'.
        cbn [loop]. cbn [app] in *. rewrite A, P'.
        rewrite (loop_fuel (length (x :: buf ++ ext)) (S (length (r1 ++ ext)))).
        * apply IH with (buf := r1); [lia|exact E].
        * cbn [length] in *. rewrite !app_length. lia.
        * lia.
      + inversion E; subst. reflexivity.
  Qed.

  Lemma recv_recv : forall st c1 c2, recv (recv st c1) c2 = recv st (c1 ++ c2).
  Proof.
    intros [s b] c1 c2. unfold recv at 2 3. cbn [fst snd].
    destruct (loop (S (length (b ++ c1))) s (b ++ c1)) as [s1 r1] eqn:D.
    unfold recv. cbn [fst snd]. rewrite app_assoc.
    symmetry. apply loop_app with (fuel := S (length (b ++ c1))); [lia|exact D].
  Qed.

  (** The state reached and the octets kept depend on the stream alone, not on
      how it was cut into reads. *)
  Theorem split_invariance : forall chunks c st,
    fold_left recv chunks (recv st c) = recv st (c ++ concat chunks).
  Proof.
    induction chunks as [|c1 cs IH]; intros c st; cbn [fold_left concat].
    - rewrite app_nil_r. reflexivity.
    - rewrite recv_recv, IH, app_assoc. reflexivity.
  Qed.

  Lemma recv_nil : forall st, recv (recv st []) [] = recv st [].
  Proof. intros st. rewrite recv_recv. reflexivity. Qed.

  (* [recv (s, []) []] computes to [(s, [])] *)
  Lemma fold_recv : forall chunks s, fold_left recv chunks (s, []) = recv (s, []) (concat chunks).
  Proof. intros chunks s. exact (split_invariance chunks [] (s, [])). Qed.

  Corollary stream_only : forall chunks1 chunks2 s,
    concat chunks1 = concat chunks2 -> fold_left recv chunks1 (s, []) = fold_left recv chunks2 (s, []).
  Proof. intros chunks1 chunks2 s E. rewrite !fold_recv, E. reflexivity. Qed.

  (** A stopped loop is stable: receiving nothing changes nothing. *)
  Lemma loop_idem : forall fuel s buf s' r,
    length buf < fuel -> loop fuel s buf = (s', r) -> recv (s', r) [] = (s', r).
  Proof.
    induction fuel as [|fuel IH]; intros s buf s' r Hf E; [lia|].
    cbn [loop] in E. destruct buf as [|x buf].
    - inversion E; subst. reflexivity.
    - destruct (alive s) eqn:A.
      + destruct (probe (phase s) (x :: buf)) as [[f r1]|] eqn:P.
        * pose proof (probe_shrinks _ _ _ _ P) as L. apply IH with (s := handle s f) (buf := r1); [lia|exact E].
        * inversion E; subst. unfold recv. cbn [fst snd]. rewrite app_nil_r. cbn [loop]. rewrite A, P. reflexivity.
      + inversion E; subst. unfold recv. cbn [fst snd]. rewrite app_nil_r. cbn [loop]. rewrite A. reflexivity.
  Qed.

  Lemma recv_idem : forall st c, recv (recv st c) [] = recv st c.
  Proof.
    intros [s b] c. unfold recv at 2 3. cbn [fst snd].
    destruct (loop (S (length (b ++ c))) s (b ++ c)) as [s1 r1] eqn:D.
    apply loop_idem with (fuel := S (length (b ++ c))) (s := s) (buf := b ++ c); [lia|exact D].
  Qed.

  (** Cutting a stream into reads, starting from any state with any kept tail. *)
  Theorem split_invariance_from : forall chunks st,
    fold_left recv chunks st = match chunks with [] => st | _ => recv st (concat chunks) end.
  Proof.
    intros [|c cs] st; [reflexivity|]. cbn [fold_left concat]. apply split_invariance.
  Qed.

  Variable encode : frame -> list byte.
  Variable accepts : bool -> frame -> Prop.   (* frame [f] is well-formed and legal in phase [ph] *)
  Hypothesis probe_encode : forall ph f rest, accepts ph f -> probe ph (encode f ++ rest) = Some (f, rest).
  Hypothesis probe_prefix : forall ph f q q', accepts ph f -> encode f = q ++ q' -> q' <> [] -> probe ph q = None.

  (** The frame sequence is legal for the handler: each frame is accepted in
      the phase the handler is in when it arrives, and the handler has not
      closed the connection before it arrives. *)
  Fixpoint consistent (s : St) (fs : list frame) : Prop :=
    match fs with
    | [] => True
    | f :: fs' => alive s = true /\ accepts (phase s) f /\ consistent (handle s f) fs'
    end.

  Lemma encode_nonempty : forall ph f, accepts ph f -> encode f <> [].
  Proof.
    intros ph f A E. pose proof (probe_encode ph f [] A) as P.
    apply probe_shrinks in P. rewrite E in P. cbn in P. lia.
  Qed.

  Lemma consistent_app : forall fs1 fs2 s,
    consistent s (fs1 ++ fs2) <-> consistent s fs1 /\ consistent (fold_left handle fs1 s) fs2.
  Proof.
    induction fs1 as [|f fs1 IH]; intros fs2 s; cbn [app consistent fold_left].
    - tauto.
    - rewrite IH. tauto.
  Qed.

  (** Every frame of a well-formed stream is handled, in order, and nothing is
      left in the buffer. *)
  Theorem stream_theorem : forall fs s,
    consistent s fs -> recv (s, []) (concat (map encode fs)) = (fold_left handle fs s, []).
  Proof.
    induction fs as [|f fs IH]; intros s C; [reflexivity|].
    destruct C as (AL & A & C). cbn [map concat fold_left].
    rewrite (recv_complete _ _ _ _ AL (probe_encode _ _ _ A)). apply IH, C.
  Qed.

  (** Cut anywhere: the frames whose final octet has arrived are handled, the
      proper prefix [q] of the next one is left untouched in the buffer. *)
  Theorem stream_cut : forall fs1 f fs2 s q q',
    consistent s (fs1 ++ f :: fs2) -> encode f = q ++ q' -> q' <> [] ->
    recv (s, []) (concat (map encode fs1) ++ q) = (fold_left handle fs1 s, q).
  Proof.
    intros fs1 f fs2 s q q' C E NE.
    apply consistent_app in C. destruct C as [C1 (_ & A & _)].
    rewrite <- recv_recv. rewrite (stream_theorem _ _ C1).
    apply recv_partial, (probe_prefix _ _ _ _ A E NE).
  Qed.

  (** The same, for any way of cutting the received octets into reads. *)
  Corollary stream_any_cut : forall fs1 f fs2 s q q' chunks,
    consistent s (fs1 ++ f :: fs2) -> encode f = q ++ q' -> q' <> [] ->
    concat chunks = concat (map encode fs1) ++ q ->
    fold_left recv chunks (s, []) = (fold_left handle fs1 s, q).
  Proof.
    intros fs1 f fs2 s q q' chunks C E NE EC. rewrite fold_recv, EC. eapply stream_cut; eassumption.
  Qed.

  Corollary stream_any_cut_all : forall fs s chunks,
    consistent s fs -> concat chunks = concat (map encode fs) ->
    fold_left recv chunks (s, []) = (fold_left handle fs s, []).
  Proof. intros fs s chunks C EC. rewrite fold_recv, EC. apply stream_theorem, C. Qed.
End Framing.

(** ** The logging handler: any handler, run next to a log of the frames it
    was given.  Its loop does what the plain one does and only appends to the
    log ([lloop_spec]). *)
Section Logging.
  Variable byte : Type.
  Variable St : Type.
  Variable frame : Type.
  Variable phase : St -> bool.
  Variable alive : St -> bool.
  Variable probe : bool -> list byte -> option (frame * list byte).
  Variable handle : St -> frame -> St.

  Definition lalive (sl : St * list frame) : bool := alive (fst sl).
  Definition lphase (sl : St * list frame) : bool := phase (fst sl).
  Definition lhandle (sl : St * list frame) (f : frame) : St * list frame :=
    (handle (fst sl) f, snd sl ++ [f]).

  Lemma lhandle_fold : forall fs s log,
    fold_left lhandle fs (s, log) = (fold_left handle fs s, log ++ fs).
  Proof.
    induction fs as [|f fs IH]; intros s log; cbn [fold_left].
    - rewrite app_nil_r. reflexivity.
    - unfold lhandle at 2. cbn [fst snd]. rewrite IH, <- app_assoc. reflexivity.
  Qed.

  Definition lrecv := recv byte (St * list frame) frame lphase lalive probe lhandle.
  Definition precv := recv byte St frame phase alive probe handle.

  Lemma lloop_spec : forall fuel s log buf, exists more,
    loop byte (St * list frame) frame lphase lalive probe lhandle fuel (s, log) buf
    = ((fst (loop byte St frame phase alive probe handle fuel s buf), log ++ more),
       snd (loop byte St frame phase alive probe handle fuel s buf)).
  Proof.
    assert (stop : forall (s : St) (log : list frame) (buf : list byte), exists more, ((s, log), buf) = ((s, log ++ more), buf))
      by (intros; exists []; rewrite app_nil_r; reflexivity).
    induction fuel as [|fuel IH]; intros s log buf; cbn [loop]; [apply stop|].
    destruct buf as [|x buf]; [apply stop|].
    unfold lphase, lalive. cbn [fst].
    destruct (alive s); [|apply stop].
    destruct (probe (phase s) (x :: buf)) as [[f r]|]; [|apply stop].
    change (lhandle (s, log) f) with (handle s f, log ++ [f]).
    destruct (IH (handle s f) (log ++ [f]) r) as [more E]. exists (f :: more).
    rewrite <- app_assoc in E. exact E.
  Qed.

  Lemma lrecv_sim : forall s log buf c,
    fst (fst (lrecv ((s, log), buf) c)) = fst (precv (s, buf) c)
    /\ snd (lrecv ((s, log), buf) c) = snd (precv (s, buf) c).
  Proof.
    intros s log buf c. unfold lrecv, precv, recv. cbn [fst snd].
    destruct (lloop_spec (S (length (buf ++ c))) s log (buf ++ c)) as [more ->]. split; reflexivity.
  Qed.

  Lemma lrecv_mono : forall st c, exists more, snd (fst (lrecv st c)) = snd (fst st) ++ more.
  Proof.
    intros [[s log] buf] c. unfold lrecv, recv. cbn [fst snd].
    destruct (lloop_spec (S (length (buf ++ c))) s log (buf ++ c)) as [more ->]. exists more. reflexivity.
  Qed.
End Logging.
