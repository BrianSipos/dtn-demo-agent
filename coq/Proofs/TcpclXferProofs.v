(** C01, composition: the receiver specification applied to a prefix of what
    the sender emitted yields a prefix of what was queued -- nothing truncated,
    duplicated, merged or reordered -- and success is only reported for
    bundles the peer has delivered. *)
From Coq Require Import ZArith List Bool Lia.
From DTN Require Import Lib.Bytes Model.TcpclMsg Model.TcpclSess Model.TcpclXferSpec
  Proofs.TcpclXferRecv Proofs.TcpclXferSend.
Import ListNotations.
Local Open Scope N_scope.

Lemma init_first_app h r : init_first (h ++ r) -> init_first h.
Proof.
  intros H pre g post E Hg. apply (H pre g (post ++ r)); [|exact Hg].
  rewrite E, <- app_assoc. reflexivity.
Qed.

Lemma rx_spec_xfold h : init_first h ->
  rx_spec h = (has_init h, fst (xfold (segs_of h)), complete_of (snd (xfold (segs_of h)))).
Proof.
  induction h as [|f h IH] using rev_ind; intros HI; [reflexivity|].
  rewrite rx_spec_snoc, (IH (init_first_app _ _ HI)). clear IH.
  unfold has_init at 2. rewrite existsb_app. cbn [existsb]. rewrite orb_false_r. fold (has_init h).
  destruct f as [c|[fl xid ext data|fl xid len|r xid| |fl r|ri r|ka smru xmru nid ext]];
    try (rewrite segs_of_snoc_none by reflexivity; cbn [rx_spec_step is_sess_init]; rewrite orb_false_r; reflexivity).
  - assert (Hs : has_init h = true).
    { apply (HI h (FMsg (MXferSeg fl xid ext data)) []); [reflexivity|discriminate]. }
    rewrite Hs, segs_of_snoc_seg, xfold_snoc.
    destruct (xfold (segs_of h)) as [cur out]. cbn [fst snd rx_spec_step xfer_step is_sess_init orb].
    unfold rx_accept. destruct (has_start fl).
    + destruct cur as [[ci acc]|]; destruct (has_end fl); cbn [fst snd];
        rewrite ?complete_of_app; cbn [complete_of flat_map tr_complete tr_id tr_data fst snd app];
        rewrite ?app_nil_r; reflexivity.
    + destruct cur as [[ci acc]|]; [|reflexivity].
      destruct (ci =? xid); [|reflexivity].
      destruct (has_end fl); cbn [fst snd]; rewrite ?complete_of_app;
        cbn [complete_of flat_map tr_complete tr_id tr_data fst snd app]; reflexivity.
  - rewrite segs_of_snoc_none by reflexivity. cbn [rx_spec_step is_sess_init]. rewrite orb_true_r. reflexivity.
Qed.

Lemma deliver_spec_xfold h : init_first h ->
  deliver_spec h = complete_of (snd (xfold (segs_of h))).
Proof. intros H. unfold deliver_spec. rewrite (rx_spec_xfold h H). reflexivity. Qed.

Lemma complete_of_transfers sg : complete_of (transfers_of sg) = complete_of (snd (xfold sg)).
Proof.
  unfold transfers_of. rewrite complete_of_app. unfold open_transfer.
  destruct (fst (xfold sg)) as [[ci acc]|]; cbn; apply app_nil_r.
Qed.

Lemma xfold_out_mono r : forall st, exists ext, snd (fold_left xfer_step r st) = snd st ++ ext.
Proof.
  induction r as [|g r IH]; intros st; cbn [fold_left]; [exists []; symmetry; apply app_nil_r|].
  destruct (IH (xfer_step st g)) as [ext E]. rewrite E.
  assert (H : exists e1, snd (xfer_step st g) = snd st ++ e1).
  { destruct st as [cur out]. destruct g as [[[fl xid] ex] d]. cbn [xfer_step snd].
    destruct (has_start fl).
    - destruct cur as [[ci acc]|]; destruct (has_end fl); cbn [snd]; rewrite <- ?app_assoc; eexists; try reflexivity.
      + symmetry. apply app_nil_r.
    - destruct cur as [[ci acc]|]; [|exists []; symmetry; apply app_nil_r].
      destruct (ci =? xid); [|exists []; symmetry; apply app_nil_r].
      destruct (has_end fl); cbn [snd]; [eexists; reflexivity|exists []; symmetry; apply app_nil_r]. }
  destruct H as [e1 E1]. rewrite E1, <- app_assoc. eexists. reflexivity.
Qed.

Lemma complete_prefix sg r :
  prefix (complete_of (snd (xfold sg))) (complete_of (snd (xfold (sg ++ r)))).
Proof.
  unfold xfold. rewrite fold_left_app. destruct (xfold_out_mono r (fold_left xfer_step sg (None, []))) as [ext E].
  rewrite E, complete_of_app. eexists. reflexivity.
Qed.

Lemma no_refuse_prefix (h r : list frame) : no_refuse (h ++ r) -> no_refuse h.
Proof. intros H. apply Forall_app in H. apply H. Qed.

Lemma exact_prefix (q : list bytes) (D R : list (N * bytes)) :
  map fst (D ++ R) = Nseq 1 (length (D ++ R)) ->
  map snd (D ++ R) = firstn (length (D ++ R)) q ->
  map fst D = Nseq 1 (length D) /\ map snd D = firstn (length D) q.
Proof.
  intros H1 H2. rewrite map_app in *. split.
  - apply Nseq_app_prefix in H1. rewrite map_length in H1. exact H1.
  - apply (f_equal (firstn (length D))) in H2.
    rewrite firstn_app, map_length, Nat.sub_diag in H2. cbn [firstn] in H2.
    rewrite app_nil_r, firstn_firstn, app_length in H2.
    rewrite <- (map_length snd D) in H2 at 1. rewrite firstn_all in H2. rewrite H2. f_equal. lia.
Qed.

Section Composition.
  Variables cA cB : cfg.
  Variables opsA opsB : list op.
  Let sA := run cA opsA.
  Let sB := run cB opsB.

  (** Channel hypotheses: what an endpoint has acted on is a prefix of what
      its peer has emitted (reliable FIFO octet stream + framing: C07). *)
  Hypothesis chan_AB : prefix (handled sB) (sent sA).

  Lemma deliveries_are_transfers :
    prefix (deliver_spec (handled sB)) (complete_of (transfers_of (segs_of (sent sA)))).
  Proof.
    destruct chan_AB as [r E]. pose proof (sent_init_first cA opsA) as HI. fold sA in HI.
    rewrite E in HI. rewrite (deliver_spec_xfold _ (init_first_app _ _ HI)).
    rewrite complete_of_transfers, E, segs_of_app. apply complete_prefix.
  Qed.

  (** C01 safety, given that A handled no XFER_REFUSE. *)
  Theorem safety_no_refuse :
    no_refuse (handled sA) ->
    let D := deliver_spec (handled sB) in
    map fst D = Nseq 1 (length D) /\ map snd D = firstn (length D) (queued cA opsA).
  Proof.
    intros NR D. destruct deliveries_are_transfers as [R E].
    destruct (sender_exact cA opsA NR) as [H1 H2]. cbv zeta in H1, H2. fold sA in H1, H2.
    rewrite E in H1, H2. exact (exact_prefix _ _ _ H1 H2).
  Qed.

  Hypothesis chan_BA : prefix (handled sA) (sent sB).

  Lemma peer_sends_no_refuse : no_refuse (handled sA).
  Proof.
    destruct chan_BA as [r E]. pose proof (no_refuse_sent cB opsB) as H. fold sB in H.
    rewrite E in H. exact (no_refuse_prefix _ _ H).
  Qed.

  (** C01 safety: what B delivered is, in order, ids 1..k with the first k
      bundles A queued, byte for byte. *)
  Theorem C01_safety_core :
    let D := deliver_spec (handled sB) in
    map fst D = Nseq 1 (length D) /\ map snd D = firstn (length D) (queued cA opsA).
  Proof. exact (safety_no_refuse peer_sends_no_refuse). Qed.

  (** Success is only reported for a bundle B has delivered in full. *)
  Theorem C01_success_core id len :
    In (ESig SigSendFinished [PStrNum id; PInt len; PStr RES_SUCCESS]) (trace sA) ->
    exists d, bundle_of (queued cA opsA) id = Some d /\ len = N.of_nat (length d) /\
              In (id, d) (deliver_spec (handled sB)).
  Proof.
    intros Hs. destruct (success_acked cA opsA id len Hs) as (fl & En & Hin). fold sA in Hin.
    destruct chan_BA as [r E].
    assert (Hin' : In (FMsg (MXferAck fl id len)) (sent sB)) by (rewrite E; apply in_or_app; left; exact Hin).
    assert (Ha : In (id, len) (end_acks (sent sB))).
    { unfold end_acks. apply in_flat_map. exists (FMsg (MXferAck fl id len)). split; [exact Hin'|].
      cbn [end_ack_of]. rewrite En. left. reflexivity. }
    pose proof (end_acks_spec cB opsB) as EA. fold sB in EA. rewrite EA in Ha.
    apply in_map_iff in Ha. destruct Ha as [[i d] [Hd Hin2]]. unfold dlen in Hd. cbn [fst snd] in Hd.
    injection Hd as -> <-.
    exists d. split; [|split; [reflexivity|exact Hin2]].
    destruct deliveries_are_transfers as [R Ed]. apply (complete_bundle cA opsA). fold sA.
    rewrite Ed. apply in_or_app. left. exact Hin2.
  Qed.
End Composition.
