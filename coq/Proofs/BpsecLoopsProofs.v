(** The loop structure of security verification, as the translator reads it off bp/app/bpsec.py
    (Gen/BpsecLoops.v).  The block iteration is tied to the chain of Model/BpSecChain.v ([recv_sec_as]); the
    target loop is a model of its own ([by_index], [by_zip]) that shares [tgts_result] with it (property C12). *)
From Coq Require Import NArith List Bool.
From DTN Require Import Gen.BpsecLoops Model.BpSecChain Proofs.BpSecChainProofs.
Import ListNotations.
Local Open Scope N_scope.

(** One verification step with the iteration the source uses; [snapshot], [snap_bcb], [snap_bib] stand for
    the generated [verify_*_iterates_snapshot]. *)
Definition sec_step_as (snapshot : bool) (c : cfg) (bcb : bool) (secs : list secblk) (st : cstate) : cstate * flow :=
  if snapshot then sec_step c bcb secs st else sec_step_live c bcb secs st.

Definition recv_sec_as (snap_bcb snap_bib : bool) (c : cfg) (secs : list secblk) (data : datamap) : result :=
  chain (fun bcb => sec_step_as (if bcb then snap_bcb else snap_bib) c bcb secs) (mkCS true None (view_of secs data)).

Lemma recv_sec_as_snapshot : forall c secs data, recv_sec_as true true c secs data = recv_sec c secs data.
Proof.
  intros c secs data. unfold recv_sec_as, recv_sec, chain, sec_step_as.
  destruct (sec_step c true secs (mkCS true None (view_of secs data))) as [st1 [|]]; reflexivity.
Qed.

(** The snapshot walk lets every listed block contribute its verdict ... *)
Lemma snapshot_counts_every_block : forall c l v s,
  In s l -> blk_result s <> VNone -> snd (verify_all c l v) <> [].
Proof.
  intros c l v s Hin Hbad. rewrite verify_all_failures. intro E.
  rewrite failures_nil in E. apply Hbad, E, Hin.
Qed.

(** ... the live walk does not: the block after an accepted (removed) one is never visited. *)
Lemma live_skips_a_block :
  exists c secs v s, In s secs /\ blk_result s <> VNone
    /\ snd (verify_live (S (length secs)) c secs false 0 v) = [].
Proof.
  exists (mkCfg true), w_second_bad, (view_of w_second_bad [(5, 6); (1, 9)]).
  eexists. split; [right; left; reflexivity|]. split; [vm_compute; discriminate|reflexivity].
Qed.

Section Targets.
  Variable R : Type.

  (** [for (ix, t) in enumerate(targets): results[ix]]: [None] = IndexError *)
  Fixpoint by_index (ix : nat) (targets : list N) (results : list R) : list (N * option R) :=
    match targets with
    | [] => []
    | t :: rest => (t, nth_error results ix) :: by_index (S ix) rest results
    end.

  (** [for (t, r) in zip(targets, results)] *)
  Definition by_zip (targets : list N) (results : list R) : list (N * option R) :=
    map (fun p => (fst p, Some (snd p))) (combine targets results).

  Definition target_loop (indexed : bool) (targets : list N) (results : list R) : list (N * option R) :=
    if indexed then by_index 0 targets results else by_zip targets results.

  Lemma by_index_covers : forall targets ix results, map fst (by_index ix targets results) = targets.
  Proof. induction targets as [|t rest IH]; intros; cbn; [reflexivity|]. rewrite IH. reflexivity. Qed.

  Lemma by_zip_length : forall targets results,
    length (by_zip targets results) = Nat.min (length targets) (length results).
  Proof. intros. unfold by_zip. rewrite map_length. apply combine_length. Qed.

  (** the verdict list the model takes: a target whose result is missing makes the loop raise there *)
  Definition verdicts (judge : N -> R -> tres) (l : list (N * option R)) : list (N * tres) :=
    map (fun p => (fst p, match snd p with Some r => judge (fst p) r | None => TRaise end)) l.

  Lemma missing_result_fails : forall judge l t,
    In (t, None) l -> tgts_result (verdicts judge l) <> VNone.
  Proof.
    intros judge l t. induction l as [|[x o] rest IH]; intro Hin; [destruct Hin|].
    cbn [verdicts map fst snd tgts_result]. destruct Hin as [E|Hin].
    - inversion E; subst. discriminate.
    - specialize (IH Hin). fold (verdicts judge rest).
      destruct o as [r|]; [|discriminate].
      destruct (judge x r) as [p|code|]; [exact IH| |discriminate].
      destruct (tgts_result (verdicts judge rest)); [congruence|discriminate|discriminate].
  Qed.

  Lemma by_index_missing : forall targets ix results t k,
    nth_error targets k = Some t -> nth_error results (ix + k)%nat = None ->
    In (t, None) (by_index ix targets results).
  Proof.
    induction targets as [|x rest IH]; intros ix results t k Ht Hr; [destruct k; discriminate|].
    destruct k as [|k]; cbn [nth_error] in Ht.
    - inversion Ht; subst. left. rewrite <- plus_n_O in Hr. cbn [by_index]. rewrite Hr. reflexivity.
    - right. apply (IH (S ix) results t k Ht). rewrite <- Hr. f_equal. apply plus_n_Sm.
  Qed.
End Targets.

(** With indexing, a target that has no result makes the block fail; zip drops it without a trace. *)
Theorem indexed_target_without_result_fails : forall (R : Type) (judge : N -> R -> tres) targets results t k,
  nth_error targets k = Some t -> nth_error results k = None ->
  tgts_result (verdicts R judge (target_loop R true targets results)) <> VNone.
Proof.
  intros R judge targets results t k Ht Hr. apply (missing_result_fails R judge _ t).
  apply (by_index_missing R targets 0%nat results t k Ht). exact Hr.
Qed.

Theorem zip_skips_a_target :
  exists (targets : list N) (results : list N) (t : N),
    In t targets /\ ~ In t (map fst (target_loop N false targets results))
    /\ tgts_result (verdicts N (fun _ r => TOk r) (target_loop N false targets results)) = VNone.
Proof.
  exists [1; 5], [7], 5. split; [right; left; reflexivity|]. split; [|reflexivity].
  cbn. intros [E|[]]. discriminate E.
Qed.

(** what the [except] branch appends to [failure]; [failed_sec] stands for the generated
    [verify_*_exception_failed_sec] *)
Definition exception_code (failed_sec : bool) : option N := if failed_sec then Some FAILED_SEC else None.

Lemma source_chain_fail_closed :
  forall (c : cfg) (secs : list secblk) (data : datamap),
    (exists s, In s secs /\ s_visible s = true /\ blk_result s <> VNone) ->
    (forall s code, In s secs -> s_visible s = true -> blk_result s = VCode code -> sec_reason code = true) ->
    let r := recv_sec_as verify_bcb_iterates_snapshot verify_bib_iterates_snapshot c secs data in
    r_reached r = false /\ r_app r = None /\ exists code, r_out r = Deleted code /\ 12 <= code <= 16.
Proof.
  intros c secs data H1 H2. cbv zeta. change verify_bcb_iterates_snapshot with true. change verify_bib_iterates_snapshot with true.
  rewrite recv_sec_as_snapshot. exact (fail_closed c secs data H1 H2).
Qed.

Lemma source_target_loop_covers :
  forall (R : Type) (targets : list N) (results : list R),
    map fst (target_loop R verify_bib_results_by_index targets results) = targets
    /\ map fst (target_loop R verify_bcb_results_by_index targets results) = targets.
Proof. intros R targets results. split; exact (by_index_covers R targets 0%nat results). Qed.

Lemma source_target_without_result_fails :
  forall (R : Type) (judge : N -> R -> tres) (targets : list N) (results : list R) (t : N) (k : nat),
    nth_error targets k = Some t -> nth_error results k = None ->
    tgts_result (verdicts R judge (target_loop R verify_bib_results_by_index targets results)) <> VNone
    /\ tgts_result (verdicts R judge (target_loop R verify_bcb_results_by_index targets results)) <> VNone.
Proof. intros R judge targets results t k H1 H2. split; exact (indexed_target_without_result_fails R judge targets results t k H1 H2). Qed.

Lemma source_exception_is_failed_sec :
  exception_code verify_bib_exception_failed_sec = step_code VRaised
  /\ exception_code verify_bcb_exception_failed_sec = step_code VRaised.
Proof. split; reflexivity. Qed.
