(** TCPCL endpoint model: no transfer starts after SESS_TERM (partial, with
    the refutation of the unconditional statement); C09 clauses. *)
From Coq Require Import NArith List PeanoNat Lia.
From RecordUpdate Require Import RecordSet.
From DTN Require Import Lib.Bytes Model.TcpclMsg Model.TcpclSess Proofs.TcpclSessBasics
  Proofs.TcpclSentProofs2 Proofs.TcpclSentProofs5 Proofs.TcpclSentProofs7.
From DTN Require Import Proofs.TcpclSessSpec.
Import ListNotations RecordSetNotations.
Local Open Scope N_scope.

Lemma firstn_pos (sz : N) (b : bytes) : 0 < sz -> b <> [] -> 0 < N.of_nat (length (firstn (N.to_nat sz) b)).
Proof.
  intros Hs Hb. destruct b as [|x b]; [contradiction|].
  destruct (N.to_nat sz) as [|k] eqn:Ek; [lia|]. cbn [firstn length]. lia.
Qed.

(** While a transfer stays in progress after [send_next], its offset is
    positive: a first segment is empty only if the whole bundle is, and then it
    is also the last. *)
Lemma send_next_pos s : 0 < tx_len s \/ 0 < seg_size s ->
  tx_tmp (send_next s) <> None -> 0 < tx_len (send_next s).
Proof.
  intros Hp.
  destruct (send_next_spec s) as [E|id data E Hd|id data E Hd seg newlen Hn|id data E Hd seg newlen Hn]; ep_cbn.
  - intros H. contradiction.
  - intros _. lia.
  - intros _. destruct Hp as [Hp|Hp]; [lia|]. destruct (N.eq_dec (tx_len s) 0) as [E0|E0]; [|lia].
    subst newlen seg. unfold seg_data in *. rewrite E0 in *. cbn [N.to_nat skipn] in *.
    destruct data as [|x d]; [rewrite firstn_nil in Hn; discriminate Hn|].
    pose proof (firstn_pos (seg_size s) (x :: d) Hp ltac:(discriminate)). lia.
  - intros H. elim H. reflexivity.
Qed.

Lemma tx_len_pos_step_o o s : closed s = false -> not_rx o = true ->
  (in_sess s = true -> 0 < seg_size s) -> (tx_tmp s <> None -> 0 < tx_len s) ->
  tx_tmp (step s o) <> None -> 0 < tx_len (step s o).
Proof.
  intros Hc Ho Hseg Hlen.
  (* the sub-specifications are opened by hand: [spec_cases] would open [send_next] too *)
  destruct (step_spec s o Hc); try discriminate Ho;
    try match goal with H : pq_spec _ _ |- _ => destruct H end;
    try match goal with H : txp_spec _ _ _ |- _ => destruct H end.
  (* [send_next x] is made a variable before the projections are computed:
     left in place, the kernel unfolds it when it compares the two goals *)
  all: try lazymatch goal with |- context [send_next ?x] =>
    generalize (send_next_pos x); generalize (send_next x); intros s1 Hs1; ep_cbn; apply Hs1; ep_cbn end.
  all: ep_cbn; try exact Hlen.
  - left. apply Hlen. congruence.
  - right. auto.
Qed.

(** Predicates with suffix [f] are on frames (here: not a START segment). *)
Definition nostartf (f : frame) : Prop :=
  match f with FMsg (MXferSeg fl _ _ _) => has_start fl = false | _ => True end.

Fixpoint after_term (l : list frame) : list frame :=
  match l with
  | [] => []
  | f :: r => if is_sess_term f then r else after_term r
  end.

Lemma after_term_app l x :
  after_term (l ++ x) = if (0 <? nterm l)%nat then after_term l ++ x else after_term x.
Proof.
  induction l as [|f l IH]; [reflexivity|]. cbn [app after_term]. unfold nterm. cbn [filter].
  destruct (is_sess_term f); [reflexivity|]. exact IH.
Qed.

Lemma nostart_out_msg m s : Forall nostartf (out_msg m s) /\ after_term (out_msg m s) = [].
Proof. destruct (out_msg_cases m s); split; try reflexivity; repeat constructor. Qed.

Lemma nostart_out_contact c s : Forall nostartf (out_contact c s) /\ after_term (out_contact c s) = [].
Proof. destruct (out_contact_cases c s); split; try reflexivity; repeat constructor. Qed.

Lemma nostart_out_op o s : (tx_tmp s <> None -> 0 < tx_len s) ->
  after_term (out_op o s) = [] /\ (in_term s = true -> Forall nostartf (out_op o s)).
Proof.
  intros Hlen. destruct (out_op_cases o s) as [| | | |fl id ext d _ _ [[Hn Hs]|(_&_&Ht)]];
    (split; [reflexivity|]); intros Hi; repeat constructor.
  - cbn [nostartf]. rewrite Hs. apply N.eqb_neq. specialize (Hlen Hn). lia.
  - congruence.
Qed.

(** No start: a transfer in progress is past offset 0, and no START segment
    was sent after the SESS_TERM. *)
Definition NS (s : ep) : Prop :=
  (tx_tmp s <> None -> 0 < tx_len s) /\ Forall nostartf (after_term (sent s)).

Lemma NS_sent s out : TC s -> Forall nostartf (after_term (sent s)) ->
  after_term out = [] -> (in_term s = true -> Forall nostartf out) ->
  Forall nostartf (after_term (sent s ++ out)).
Proof.
  intros Ht Hs Ha Ho. rewrite after_term_app. unfold TC in Ht. rewrite Ht.
  destruct (in_term s); cbn.
  - apply Forall_app. split; [exact Hs|apply Ho; reflexivity].
  - rewrite Ha. constructor.
Qed.

Lemma NS_recv_frame fr s : TC s -> NS s -> NS (fst (recv_frame fr s)).
Proof.
  intros Ht [N2 N1]. destruct fr as [c|m]; split.
  - rewrite tx_tmp_recv_contact, tx_len_recv_contact. exact N2.
  - rewrite sent_recv_contact. destruct (nostart_out_contact c s). apply NS_sent; auto.
  - intros H. destruct (tx_recv_msg m s) as [[e1 e2]|e]; [|congruence].
    rewrite e2. apply N2. rewrite <- e1. exact H.
  - rewrite sent_recv_msg. destruct (nostart_out_msg m s). apply NS_sent; auto.
Qed.

Definition pos_seg (s : ep) : Prop := in_sess s = true -> 0 < seg_size s.

Lemma NS_step_o o s : pos_seg s -> TC s -> NS s -> closed s = false -> not_rx o = true -> NS (step s o).
Proof.
  intros Hp Ht [N2 N1] Hc Ho. split.
  - apply tx_len_pos_step_o; assumption.
  - rewrite (sent_step o s Hc Ho). destruct (nostart_out_op o s N2). apply NS_sent; auto.
Qed.

Definition Inv_no_start (s : ep) : Prop := (I2 s /\ TC s) /\ NS s.

Lemma Inv_no_start_step s o : pos_seg s -> Inv_no_start s -> Inv_no_start (step s o).
Proof.
  intros Hp. destruct I2TC_keeps as [_ Kop Kfr _ _]. apply (step_inv_at Inv_no_start); try (intros; assumption).
  - intros [H N] Hc Ho. split; [apply Kop; assumption|]. apply NS_step_o; try assumption. apply H.
  - intros s1 fr rest [H N] Hc Hk. split; [apply Kfr; assumption|]. apply NS_recv_frame; [apply H|exact N].
Qed.

Lemma Inv_no_start_init c : Inv_no_start (init c).
Proof.
  split; [split; [apply I2_init|reflexivity]|]. split; [cbn; congruence|constructor].
Qed.

Lemma Inv_no_start_from ops : forall s0, Inv_no_start s0 ->
  (forall k, pos_seg (fold_left step (firstn k ops) s0)) -> Inv_no_start (fold_left step ops s0).
Proof.
  induction ops as [|o ops IH]; intros s0 H0 H; [exact H0|]. cbn [fold_left].
  apply IH; [apply Inv_no_start_step; [exact (H 0%nat)|exact H0]|]. intros k. exact (H (S k)).
Qed.

Lemma Inv_no_start_run c ops : (forall k, pos_seg (run c (firstn k ops))) -> Inv_no_start (run c ops).
Proof. apply Inv_no_start_from, Inv_no_start_init. Qed.

(** FULL STATEMENT (false for the model as for the code, see
    [no_start_after_term_refuted]):
      sent s = pre ++ FMsg (MSessTerm fl r) :: post -> no START segment in post.
    Proved: the same under the hypothesis that the segment size in use is
    positive in every state of the run in which the session is established
    ([pos_seg]); it is [min segment_size_tx_initial peer_segment_mru], so the
    hypothesis fails exactly when the peer announces a segment MRU of 0, the
    local initial segment size is 0, or the merge of the session settings
    fails after [in_sess] was set (non-ASCII peer node id). *)
Theorem no_start_after_term_partial c ops :
  (forall k, pos_seg (run c (firstn k ops))) ->
  forall pre fl r post, sent (run c ops) = pre ++ FMsg (MSessTerm fl r) :: post ->
  Forall (fun f => match f with FMsg (MXferSeg flags _ _ _) => has_start flags = false | _ => True end) post.
Proof.
  intros H pre fl r post E. destruct (Inv_no_start_run c ops H) as (_&_&N1). rewrite E, after_term_app in N1.
  cbn [after_term is_sess_term] in N1. destruct (0 <? nterm pre)%nat; [|exact N1].
  apply Forall_app in N1. destruct N1 as [_ N1]. inversion N1; assumption.
Qed.

(** The refutation: an active endpoint whose peer announces a segment MRU of 0
    sends an empty START segment at every queue run, also after its SESS_TERM (the second bundle
    is queued BEFORE terminate(): its pending queue run fires afterwards; once
    terminating, send_bundle_data is refused). *)
Definition mru0_cfg : cfg := mkCfg false [100] 30 60 1000 500 None.
Definition mru0_ops : list op :=
  [OStart; ORx (encode_frame (FContact (mkContact MAGIC 4 0)));
   ORx (encode_frame (FMsg (MSessInit 30 0 1000 [100] []))); OSend [1;2;3]; OPQ; OSend [4]; OTerm 0; OPQ].

Theorem no_start_after_term_refuted :
  exists c ops pre fl r post, sent (run c ops) = pre ++ FMsg (MSessTerm fl r) :: post
    /\ ~ Forall (fun f => match f with FMsg (MXferSeg flags _ _ _) => has_start flags = false | _ => True end) post.
Proof.
  exists mru0_cfg, mru0_ops.
  exists [FContact (mkContact MAGIC 4 0); FMsg (MSessInit 30 1000 18446744073709551615 [100] []);
          FMsg (MXferSeg 2 1 [0; 0; 1; 0; 8; 0; 0; 0; 0; 0; 0; 0; 3] [])], 0, 0,
         [FMsg (MXferSeg 2 1 [0; 0; 1; 0; 8; 0; 0; 0; 0; 0; 0; 0; 3] [])].
  split; [vm_compute; reflexivity|]. intros H. inversion H as [|f l H1 H2]. vm_compute in H1. discriminate H1.
Qed.

Definition reply_only (f : frame) : Prop :=
  match f with FMsg (MSessTerm fl _) => fl = 1 | _ => True end.

Definition term_flag_ok (o : op) (f : frame) : Prop :=
  match f with
  | FMsg (MSessTerm fl r) =>
      match o with
      | ORx _ => fl = 1
      | OTerm r' => fl = 0 /\ r = r'
      | OFireIdle => fl = 0 /\ r = 1
      | _ => False
      end
  | _ => True
  end.

Lemma reply_only_out_msg m s : Forall reply_only (out_msg m s).
Proof. destruct (out_msg_cases m s); repeat constructor. Qed.

Lemma reply_only_out_contact c s : Forall reply_only (out_contact c s).
Proof. destruct (out_contact_cases c s); repeat constructor. Qed.

Lemma term_flag_out_op o s : Forall (term_flag_ok o) (out_op o s).
Proof.
  destruct (out_op_cases o s) as [| |r Ho _ _| |]; repeat constructor.
  destruct o; try contradiction; cbn; auto.
Qed.

Definition SentExt (Q : frame -> Prop) (s0 s : ep) : Prop :=
  exists suf, sent s = sent s0 ++ suf /\ Forall Q suf.

Lemma SentExt_refl Q s : SentExt Q s s.
Proof. exists []. rewrite app_nil_r. split; [reflexivity|constructor]. Qed.

Lemma SentExt_app Q s0 s s' out : SentExt Q s0 s -> sent s' = sent s ++ out -> Forall Q out -> SentExt Q s0 s'.
Proof.
  intros (suf&H1&H2) H3 H4. exists (suf ++ out). rewrite H3, H1, <- app_assoc. split; [reflexivity|].
  apply Forall_app. split; assumption.
Qed.

(** C09: a SESS_TERM sent while handling received data carries REPLY; one sent
    by terminate() or by the idle timeout does not, and no other operation
    sends one. *)
Theorem term_flags s o : exists suf, sent (step s o) = sent s ++ suf /\ Forall (term_flag_ok o) suf.
Proof.
  change (SentExt (term_flag_ok o) s (step s o)). destruct (not_rx o) eqn:Ho.
  - destruct (closed s) eqn:Hc.
    + rewrite step_closed by exact Hc. destruct o; exact (SentExt_refl _ s).
    + exists (out_op o s). split; [apply sent_step; assumption|apply term_flag_out_op].
  - destruct o; try discriminate Ho.
    assert (H : SentExt reply_only s (step s (ORx data))).
    { apply step_inv_at; try (intros; assumption); [discriminate| |apply SentExt_refl].
      intros s1 [c|m] rest H1 _ _; (eapply SentExt_app; [exact H1| |]).
      - rewrite sent_recv_contact. reflexivity.
      - apply reply_only_out_contact.
      - rewrite sent_recv_msg. reflexivity.
      - apply reply_only_out_msg. }
    destruct H as (suf&H1&H2). exists suf. split; [exact H1|].
    eapply Forall_impl; [|exact H2]. intros [h|[]]; cbn; auto.
Qed.

Lemma close_suffix {A} (l y : list A) (b1 b2 : bool) :
  exists t, (if b1 then if b2 then l else l ++ y else l) = l ++ t.
Proof. destruct b1; [destruct b2|]; [exists []|exists y|exists []]; rewrite ?app_nil_r; reflexivity. Qed.

(** C09: transfers not yet started when a SESS_TERM is handled are reported. *)
Lemma unstarted_reported fl r s : in_sess s = true ->
  let s' := fst (handle_msg (MSessTerm fl r) s) in
  pend_start s' = []
  /\ exists t1 t2, trace s' = trace s ++ t1 ++ map TcpclXferSpec.term_ev (pend_start s) ++ t2.
Proof.
  intros Hs. cbv zeta.
  remember (MSessTerm fl r) as m eqn:Em.
  destruct (handle_msg_spec m s); try discriminate Em; ep_cbn; [congruence| |];
    (split; [reflexivity|]);
    match goal with |- context [if ?b1 then if ?b2 then ?l else _ ++ ?y else _] =>
      destruct (close_suffix l y b1 b2) as [t2 ->] end.
  - exists [], t2. rewrite <- app_assoc. reflexivity.
  - exists (if state s =? ST_ENDING then [] else [ESig SigState [PStr ST_ENDING]]), t2.
    destruct (state s =? ST_ENDING); rewrite <- !app_assoc; reflexivity.
Qed.
