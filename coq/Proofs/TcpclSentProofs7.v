(** TCPCL endpoint model: the decomposition of one operation and the invariant
    record [keeps]; what an operation or a handled frame can send; invariants of
    the session flags; the contact header comes first and only once; at most one
    SESS_TERM. *)
From Coq Require Import NArith List Bool PeanoNat Lia.
From RecordUpdate Require Import RecordSet.
From DTN Require Import Model.TcpclMsg Model.TcpclSess Proofs.TcpclSessBasics
  Proofs.TcpclSentProofs1 Proofs.TcpclSentProofs2 Proofs.TcpclSentProofs5 Proofs.TcpclSessSpec.
Import ListNotations RecordSetNotations.
Local Open Scope N_scope.

(** The kind of frame [parse_frame] yields in state [s]. *)
Definition kind_ok (s : ep) (fr : frame) : Prop :=
  match fr with FContact _ => in_conn s = false | FMsg _ => in_conn s = true end.

(** One operation from [s], decomposed: the clock, an operation other than a
    read on an open endpoint, and for a read the handling of each frame of the
    kind the receiver expects, the bookkeeping around the receive loop and the
    mark left by an escaped exception.  With [P s' := Rel s s'] this also gives
    relations between [s] and [step s o]. *)
Lemma step_inv_at (P : ep -> Prop) s o :
  (forall s dt, P s -> P (s <| now := now s + dt |>)) ->
  (P s -> closed s = false -> not_rx o = true -> P (step s o)) ->
  (forall s fr rest, P s -> closed s = false -> kind_ok s fr ->
      P (fst (recv_frame fr (s <| rx_buf := rest |> <| handled := handled s ++ [fr] |>)))) ->
  (forall s b i t, P s -> P (s <| t_recv := t |> <| idle_due := i |> <| rx_buf := b |>)) ->
  (forall s k, P s -> P (emit (EExc k) (s <| rx_alive := false |>))) ->
  P s -> P (step s o).
Proof.
  intros Hnow Hop Hfr Hupd Hexc Hs. apply (step_ind_at P P); auto.
  - intros Hc Ho. apply Hop; auto. destruct o; try reflexivity; discriminate Ho.
  - intros data _ _. apply Hupd, Hs.
  - intros s0 fr rest H0 Hc Hp. apply Hfr; auto.
    destruct fr; [eapply parse_frame_contact|eapply parse_frame_msg]; exact Hp.
Qed.

(** [keeps I P]: every operation preserves [P] on the states where [I] holds
    (the clauses of [step_inv_at]).  Invariants are proved one at a time, each
    under those it needs, and joined by [keeps_and]. *)
Record keeps (I P : ep -> Prop) : Prop := {
  k_now : forall s dt, P s -> P (s <| now := now s + dt |>);
  k_op : forall s o, I s -> P s -> closed s = false -> not_rx o = true -> P (step s o);
  k_frame : forall s fr rest, I s -> P s -> closed s = false -> kind_ok s fr ->
      P (fst (recv_frame fr (s <| rx_buf := rest |> <| handled := handled s ++ [fr] |>)));
  k_upd : forall s b i t, P s -> P (s <| t_recv := t |> <| idle_due := i |> <| rx_buf := b |>);
  k_exc : forall s k, P s -> P (emit (EExc k) (s <| rx_alive := false |>)) }.

Lemma keeps_weaken (I I' P : ep -> Prop) : (forall s, I' s -> I s) -> keeps I P -> keeps I' P.
Proof. intros Hw [H1 H2 H3 H4 H5]. constructor; auto. Qed.

Lemma keeps_both (I P Q : ep -> Prop) : keeps I P -> keeps I Q -> keeps I (fun s => P s /\ Q s).
Proof.
  intros [P1 P2 P3 P4 P5] [Q1 Q2 Q3 Q4 Q5].
  constructor; intros; match goal with H : _ /\ _ |- _ => destruct H end; split; auto.
Qed.

Lemma keeps_and (I P : ep -> Prop) :
  keeps I I -> keeps I P -> keeps (fun s => I s /\ P s) (fun s => I s /\ P s).
Proof. intros HI HP. apply keeps_weaken with (I := I); [intros s H; apply H|]. apply keeps_both; assumption. Qed.

Lemma keeps_step (P : ep -> Prop) : keeps P P -> forall s o, P s -> P (step s o).
Proof. intros [H1 H2 H3 H4 H5] s o. apply step_inv_at; auto. Qed.

Lemma keeps_run (P : ep -> Prop) c : keeps P P -> P (init c) -> forall ops, P (run c ops).
Proof. intros H H0. apply run_invariant; [exact H0|]. apply keeps_step, H. Qed.

(* The values [out_op], [out_msg] and [out_contact] take, at most one frame each,
   with what holds of the state where they take them. *)

Lemma seg_of_cases tmp len sz : seg_of tmp len sz = [] \/
  exists fl id ext d, seg_of tmp len sz = [FMsg (MXferSeg fl id ext d)]
    /\ has_start fl = (len =? 0) /\ N.of_nat (length d) <= sz.
Proof.
  unfold seg_of. destruct tmp as [[i d]|]; [|left; reflexivity]. cbv zeta.
  destruct ((len =? N.of_nat (length d)) && (0 <? len)); [left; reflexivity|right].
  do 4 eexists. split; [reflexivity|]. split.
  - destruct (len =? 0), (_ =? _); reflexivity.
  - pose proof (firstn_le_length (N.to_nat sz) (skipn (N.to_nat len) d)). lia.
Qed.

Inductive out_op_view (o : op) (s : ep) : list frame -> Prop :=
| OO_none : out_op_view o s []
| OO_ch : o = OStart -> state s = ST_CONNECTING -> c_passive (cf s) = false -> out_op_view o s [our_contact]
| OO_term r : match o with OTerm r' => r = r' | OFireIdle => r = 1 | _ => False end ->
    in_sess s = true -> in_term s = false -> out_op_view o s [FMsg (MSessTerm 0 r)]
| OO_ka : o = OFireKa -> ka_due s <> None -> out_op_view o s [FMsg MKeepalive]
| OO_seg fl id ext d : o = OPQ -> N.of_nat (length d) <= seg_size s ->
    (tx_tmp s <> None /\ has_start fl = (tx_len s =? 0))
    \/ (tx_tmp s = None /\ in_sess s = true /\ in_term s = false) ->
    out_op_view o s [FMsg (MXferSeg fl id ext d)].

Lemma out_term_cases r s :
  out_term r false s = [] \/ (out_term r false s = [FMsg (MSessTerm 0 r)] /\ in_sess s = true /\ in_term s = false).
Proof. unfold out_term. destruct (in_sess s), (in_term s); cbn; auto. Qed.

Lemma out_op_cases o s : out_op_view o s (out_op o s).
Proof.
  destruct o; cbn [out_op]; try apply OO_none.
  - destruct (N.eqb_spec (state s) ST_CONNECTING); cbn [andb]; [|apply OO_none].
    destruct (c_passive (cf s)) eqn:Ep; cbn [negb]; [apply OO_none|apply OO_ch; auto].
  - destruct (out_term_cases reason s) as [->|(->&H1&H2)]; [apply OO_none|apply OO_term; auto].
  - destruct (0 <? n_pq s)%nat; [|apply OO_none]. unfold out_pq. destruct (tx_tmp s) as [p|] eqn:Et.
    + destruct (seg_of_cases (Some p) (tx_len s) (seg_size s)) as [->|(fl&id&ext&d&->&Hs&Hl)]; [apply OO_none|].
      apply OO_seg; auto. left. split; [congruence|exact Hs].
    + destruct (in_sess s) eqn:Es; [|apply OO_none]. destruct (in_term s) eqn:Ei; [apply OO_none|].
      destruct (pend_start s) as [|[i b] r]; [apply OO_none|].
      destruct (seg_of_cases (Some (i, b)) 0 (seg_size s)) as [->|(fl&id&ext&d&->&Hs&Hl)]; [apply OO_none|].
      apply OO_seg; auto.
  - destruct (ka_due s) as [due|] eqn:Ek; [|apply OO_none]. destruct (due <=? now s); [|apply OO_none].
    apply OO_ka; [reflexivity|congruence].
  - destruct (idle_due s) as [due|]; [|apply OO_none]. destruct (due <=? now s); [|apply OO_none].
    destruct (out_term_cases 1 s) as [->|(->&H1&H2)]; [apply OO_none|apply OO_term; auto].
Qed.

Inductive out_msg_view (m : msg) (s : ep) : list frame -> Prop :=
| MO_none : c_passive (cf s) && is_init m = false -> is_term m && in_sess s && negb (in_term s) = false ->
    out_msg_view m s []
| MO_init : c_passive (cf s) && is_init m = true -> is_term m && in_sess s && negb (in_term s) = false ->
    out_msg_view m s [FMsg (sess_init_msg (cf s))]
| MO_term r : c_passive (cf s) && is_init m = false -> is_term m && in_sess s && negb (in_term s) = true ->
    out_msg_view m s [FMsg (MSessTerm 1 r)]
| MO_ack fl xid ext d len : m = MXferSeg fl xid ext d ->
    c_passive (cf s) && is_init m = false -> is_term m && in_sess s && negb (in_term s) = false ->
    out_msg_view m s [FMsg (MXferAck fl xid len)]
| MO_rej : c_passive (cf s) && is_init m = false -> is_term m && in_sess s && negb (in_term s) = false ->
    out_msg_view m s [FMsg (MReject (msg_id m) REJ_UNEXPECTED)].

Lemma out_msg_cases m s : out_msg_view m s (out_msg m s).
Proof.
  destruct m; unfold out_msg, out_term, rej.
  - destruct (in_sess s); [destruct (seg_acc _ _ _ _)|]; econstructor; cbn [is_init is_term andb negb]; rewrite ?andb_false_r; reflexivity.
  - destruct (in_sess s); [destruct (dict_get _ _); [destruct (_ && _)|]|]; constructor; cbn [is_init is_term andb negb]; rewrite ?andb_false_r; reflexivity.
  - destruct (in_sess s); [destruct (dict_get _ _)|]; constructor; cbn [is_init is_term andb negb]; rewrite ?andb_false_r; reflexivity.
  - constructor; cbn [is_init is_term andb negb]; rewrite ?andb_false_r; reflexivity.
  - destruct (in_sess s) eqn:Es, (in_term s) eqn:Et; cbn [andb negb]; constructor; rewrite ?Es, ?Et, ?andb_false_r; reflexivity.
  - constructor; cbn [is_init is_term andb negb]; rewrite ?andb_false_r; reflexivity.
  - destruct (c_passive (cf s)) eqn:Ep; constructor; rewrite ?Ep; reflexivity.
Qed.

Inductive out_contact_view (s : ep) : list frame -> Prop :=
| CO_none : out_contact_view s []
| CO_ch : c_passive (cf s) = true -> out_contact_view s [our_contact]
| CO_init : c_passive (cf s) = false -> out_contact_view s [FMsg (sess_init_msg (cf s))].

Lemma out_contact_cases c s : out_contact_view s (out_contact c s).
Proof.
  unfold out_contact. destruct (contact_ok c); [|apply CO_none].
  destruct (c_passive (cf s)) eqn:Ep; rewrite ?andb_false_r, ?andb_true_r; cbn [app]; [apply CO_ch, Ep|].
  destruct (_ && _); [apply CO_init, Ep|apply CO_none].
Qed.

(** How the session flags, the transfer in progress and the keepalive timer
    depend on each other. *)
Definition I2 (s : ep) : Prop :=
  (in_sess s = true -> in_conn s = true)
  /\ (tx_tmp s <> None -> in_sess s = true)
  /\ (keepalive_time s <> 0 -> in_sess s = true)
  /\ (ka_due s <> None -> keepalive_time s <> 0)
  /\ (in_term s = true -> in_sess s = true)
  /\ (in_conn s = true -> conhead_this s <> None).

Lemma I2_recv_frame fr s : I2 s -> kind_ok s fr -> I2 (fst (recv_frame fr s)).
Proof.
  intros (F1&F2&F3&F4&F5&F6) Hk. unfold I2. destruct fr as [c|m]; cbn [kind_ok] in Hk.
  - rewrite in_sess_recv_contact, in_conn_recv_contact, in_term_recv_contact, tx_tmp_recv_contact,
      keepalive_time_recv_contact, conhead_this_recv_contact.
    repeat split; auto.
    + intros H. rewrite (F1 H) in Hk. discriminate.
    + rewrite <- (keepalive_time_recv_contact c s). apply ka_due_recv_frame, F4.
    + rewrite Hk. unfold ch_proceed. destruct (contact_ok c), (c_passive (cf s)), (conhead_this s); cbn; congruence.
  - rewrite in_sess_recv_msg, in_conn_recv_msg, in_term_recv_msg, conhead_this_recv_msg.
    repeat split; auto.
    + intros H. destruct (tx_recv_msg m s) as [[e _]|e]; rewrite e in H; [|congruence].
      rewrite (F2 H). reflexivity.
    + destruct (is_init m) eqn:Hi; [rewrite orb_true_r; reflexivity|].
      rewrite (keepalive_time_recv_msg m s Hi). intros H. rewrite (F3 H). reflexivity.
    + apply ka_due_recv_frame, F4.
    + intros H. apply orb_true_iff in H. destruct H as [H|H].
      * rewrite (F5 H). reflexivity.
      * apply andb_true_iff in H. destruct H as [_ H]. rewrite H. reflexivity.
Qed.

Lemma I2_step_o o s : I2 s -> closed s = false -> not_rx o = true -> I2 (step s o).
Proof.
  intros (F1&F2&F3&F4&F5&F6) Hc Ho. unfold I2.
  rewrite (in_sess_step_o o s Ho), (in_conn_step_o o s Ho), (keepalive_time_step_o o s Ho),
    (in_term_step_o o s Hc Ho).
  repeat split; auto.
  - intros H. destruct (tx_tmp_step_o o s Hc Ho H); auto.
  - rewrite <- (keepalive_time_step_o o s Ho). apply ka_due_step_o; assumption.
  - intros H. apply orb_true_iff in H. destruct H as [H|H]; [auto|].
    destruct (out_op_cases o s); try discriminate H. assumption.
  - intros H. destruct (conhead_this_step_o o s Hc Ho) as [e|[e _]]; rewrite e; [auto|discriminate].
Qed.

Lemma I2_keeps : keeps I2 I2.
Proof.
  constructor; try (intros; assumption).
  - intros s o _. apply I2_step_o.
  - intros s fr rest _ H _ Hk. apply I2_recv_frame; [exact H|exact Hk].
Qed.

Lemma I2_init c : I2 (init c).
Proof. unfold I2, init. cbn. repeat split; intros; try discriminate; try congruence. Qed.

Theorem I2_run c ops : I2 (run c ops).
Proof. apply keeps_run; [apply I2_keeps|apply I2_init]. Qed.

Definition AllMsg (l : list frame) : Prop := Forall (fun f => exists m, f = FMsg m) l.

Lemma AllMsg_map l : AllMsg l -> exists ms, l = map FMsg ms.
Proof.
  induction 1 as [|f l [m Hm] _ [ms IH]]; [exists []; reflexivity|].
  exists (m :: ms). cbn. rewrite Hm, IH. reflexivity.
Qed.

Definition sent_shape (l : list frame) : Prop := l = [] \/ exists rest, l = our_contact :: rest /\ AllMsg rest.

Lemma sent_shape_app l out : l <> [] -> sent_shape l -> AllMsg out -> sent_shape (l ++ out).
Proof.
  intros Hne [H|(rest&H&Hr)] Ho; [contradiction|]. right. exists (rest ++ out). rewrite H. split; [reflexivity|].
  apply Forall_app. split; assumption.
Qed.

Lemma app_ne {A} (l out : list A) : l <> [] -> l ++ out <> [].
Proof. destruct l; [contradiction|discriminate]. Qed.

Lemma out_msg_all m s : AllMsg (out_msg m s).
Proof. destruct (out_msg_cases m s); repeat econstructor. Qed.

Lemma out_op_guard o s : I2 s ->
  out_op o s = []
  \/ (o = OStart /\ out_op o s = [our_contact] /\ state s = ST_CONNECTING /\ c_passive (cf s) = false)
  \/ (AllMsg (out_op o s) /\ in_sess s = true).
Proof.
  intros (F1&F2&F3&F4&F5&F6).
  destruct (out_op_cases o s) as [| |r _ Hs _|_ Hk|fl id ext d _ _ [[Hn _]|(_&Hs&_)]];
    [left; reflexivity|right; left; auto|..]; right; right; (split; [repeat econstructor|]); auto.
Qed.

(** Contact first: what was sent is empty or our contact header followed by
    messages, and it is empty exactly until the header goes out. *)
Definition CF (s : ep) : Prop :=
  sent_shape (sent s)
  /\ (c_passive (cf s) = true -> in_conn s = false -> sent s = [])
  /\ (c_passive (cf s) = false -> state s = ST_CONNECTING -> sent s = [])
  /\ (in_conn s = true -> sent s <> [])
  /\ (conhead_this s <> None -> sent s <> []).

Lemma CF_recv_msg m s : CF s -> in_conn s = true -> CF (fst (recv_frame (FMsg m) s)).
Proof.
  intros (C1&C2&C3&C4&C5) Hk. unfold CF.
  rewrite sent_recv_msg, cf_recv_frame, in_conn_recv_msg, conhead_this_recv_msg.
  pose proof (C4 Hk) as Hne. repeat split.
  - apply sent_shape_app; [exact Hne|exact C1|apply out_msg_all].
  - intros _ H. congruence.
  - intros Ha H. apply state_recv_frame in H. elim Hne. auto.
  - intros _. apply app_ne, Hne.
  - intros _. apply app_ne, Hne.
Qed.

Lemma CF_recv_contact c s : CF s -> in_conn s = false -> CF (fst (recv_frame (FContact c) s)).
Proof.
  intros (C1&C2&C3&C4&C5) Hk. unfold CF.
  destruct (recv_contact_spec c s) as [Hok|Hok Hp Ht|Hok Hp Ht|Hok Hp Hch|x Hok Hp Hch Ht|x Hok Hp Hch Ht]; ep_cbn.
  1,4: repeat split; assumption.
  1,2: rewrite (C2 Hp Hk); repeat split; try discriminate; right; exists []; split; [reflexivity|constructor].
  all: assert (Hne : sent s <> []) by (apply C5; congruence).
  - repeat split; auto; discriminate.
  - repeat split; try discriminate; try (intros _; apply app_ne, Hne).
    apply sent_shape_app; [exact Hne|exact C1|repeat econstructor].
Qed.

Lemma CF_step_o o s : I2 s -> CF s -> closed s = false -> not_rx o = true -> CF (step s o).
Proof.
  intros HI (C1&C2&C3&C4&C5) Hc Ho. unfold CF.
  rewrite (sent_step o s Hc Ho), (step_cf s o), (in_conn_step_o o s Ho).
  destruct (out_op_guard o s HI) as [He|[(Hs&He&Hst&Ha)|(Hall&Hsess)]].
  - rewrite He, app_nil_r. repeat split; auto.
    + intros Hp H. apply (state_step_o o s Hc Ho) in H. auto.
    + intros H. destruct (conhead_this_step_o o s Hc Ho) as [e|[_ e]]; [rewrite e in H; auto|].
      rewrite He in e. discriminate.
  - subst o. rewrite He. pose proof (C3 Ha Hst) as Hnil. rewrite Hnil. cbn [app].
    repeat split; try discriminate.
    + right. exists []. split; [reflexivity|constructor].
    + intros Hp. congruence.
    + intros _ H. exfalso. revert H. apply state_step_start; [exact Hc|]. rewrite He. discriminate.
  - destruct HI as (F1&_). pose proof (C4 (F1 Hsess)) as Hne. repeat split.
    + apply sent_shape_app; assumption.
    + intros _ H. rewrite (F1 Hsess) in H. discriminate.
    + intros Ha H. apply (state_step_o o s Hc Ho) in H. elim Hne. auto.
    + intros _. apply app_ne, Hne.
    + intros _. apply app_ne, Hne.
Qed.

Lemma CF_keeps : keeps I2 CF.
Proof.
  constructor; try (intros; assumption).
  - intros s o. apply CF_step_o.
  - intros s [c|m] rest _ H _ Hk; [apply CF_recv_contact|apply CF_recv_msg]; assumption.
Qed.

Lemma CF_init c : CF (init c).
Proof. unfold CF, sent_shape, init; cbn; repeat split; auto; intros; congruence. Qed.

Lemma I2CF_keeps : keeps (fun s => I2 s /\ CF s) (fun s => I2 s /\ CF s).
Proof. apply keeps_and; [apply I2_keeps|apply CF_keeps]. Qed.

Lemma I2CF_run c ops : I2 (run c ops) /\ CF (run c ops).
Proof. apply (keeps_run _ c I2CF_keeps). split; [apply I2_init|apply CF_init]. Qed.

Theorem CF_run c ops : CF (run c ops).
Proof. apply I2CF_run. Qed.

(** Exactly one contact header, and it comes first. *)
Theorem contact_first c ops : let s := run c ops in
  sent s = [] \/ exists rest, sent s = FContact (mkContact MAGIC 4 0) :: rest
                               /\ Forall (fun f => exists m, f = FMsg m) rest.
Proof. cbv zeta. destruct (CF_run c ops) as (H&_). exact H. Qed.

(** The same in the form used by the channel lemma of C07. *)
Theorem contact_first_map c ops : let s := run c ops in
  sent s = [] \/ exists h ms, sent s = FContact h :: map FMsg ms.
Proof.
  cbv zeta. destruct (contact_first c ops) as [H|(rest&H&Hr)]; [left; exact H|right].
  destruct (AllMsg_map rest Hr) as [ms Hms]. exists (mkContact MAGIC 4 0), ms. rewrite H, Hms. reflexivity.
Qed.

Definition nterm (l : list frame) : nat := length (filter is_sess_term l).

Lemma nterm_app a b : nterm (a ++ b) = (nterm a + nterm b)%nat.
Proof. unfold nterm. rewrite filter_app, app_length. reflexivity. Qed.

Lemma nterm_out_msg m s :
  nterm (out_msg m s) = if is_term m && in_sess s && negb (in_term s) then 1%nat else 0%nat.
Proof. destruct (out_msg_cases m s) as [? E|? E|? ? E|? ? ? ? ? ? ? E|? E]; rewrite E; reflexivity. Qed.

Lemma nterm_out_contact c s : nterm (out_contact c s) = 0%nat.
Proof. destruct (out_contact_cases c s); reflexivity. Qed.

Lemma nterm_out_op o s :
  nterm (out_op o s) = (if existsb is_sess_term (out_op o s) then 1%nat else 0%nat)
  /\ (existsb is_sess_term (out_op o s) = true -> in_term s = false).
Proof. destruct (out_op_cases o s); split; try reflexivity; try discriminate. intros _. assumption. Qed.

(** Term count: one SESS_TERM was sent if [in_term], none otherwise. *)
Definition TC (s : ep) : Prop := nterm (sent s) = if in_term s then 1%nat else 0%nat.

Lemma TC_recv_frame fr s : TC s -> I2 s -> TC (fst (recv_frame fr s)).
Proof.
  unfold TC. intros H (_&_&_&_&F5&_). destruct fr as [c|m].
  - rewrite sent_recv_contact, in_term_recv_contact, nterm_app, nterm_out_contact, H. lia.
  - rewrite sent_recv_msg, in_term_recv_msg, nterm_app, nterm_out_msg, H.
    destruct (in_term s) eqn:Et; [rewrite (F5 eq_refl)|]; destruct (is_term m), (in_sess s); cbn; reflexivity.
Qed.

Lemma TC_step_o o s : TC s -> closed s = false -> not_rx o = true -> TC (step s o).
Proof.
  unfold TC. intros H Hc Ho. rewrite (sent_step o s Hc Ho), (in_term_step_o o s Hc Ho), nterm_app, H.
  destruct (nterm_out_op o s) as [Hn Hx]. rewrite Hn.
  destruct (existsb is_sess_term (out_op o s)); [rewrite (Hx eq_refl)|rewrite orb_false_r]; cbn; [reflexivity|].
  destruct (in_term s); reflexivity.
Qed.

Lemma TC_keeps : keeps I2 TC.
Proof.
  constructor; try (intros; assumption).
  - intros s o _. apply TC_step_o.
  - intros s fr rest HI H _ _. apply TC_recv_frame; [exact H|exact HI].
Qed.

Lemma I2TC_keeps : keeps (fun s => I2 s /\ TC s) (fun s => I2 s /\ TC s).
Proof. apply keeps_and; [apply I2_keeps|apply TC_keeps]. Qed.

Theorem TC_run c ops : TC (run c ops).
Proof. apply (keeps_run _ c I2TC_keeps). split; [apply I2_init|reflexivity]. Qed.

Lemma nterm_run c ops : (nterm (sent (run c ops)) <= 1)%nat.
Proof. rewrite (TC_run c ops). destruct (in_term (run c ops)); lia. Qed.

(** At most one SESS_TERM is ever sent, and [in_term] says whether one was. *)
Theorem sess_term_once c ops : let s := run c ops in
  (length (filter is_sess_term (sent s)) <= 1)%nat
  /\ (in_term s = true <-> exists fl r, In (FMsg (MSessTerm fl r)) (sent s)).
Proof.
  cbv zeta. split; [apply nterm_run|]. pose proof (TC_run c ops) as H. unfold TC, nterm in H.
  split.
  - intros Ht. rewrite Ht in H.
    destruct (filter is_sess_term (sent (run c ops))) as [|f l] eqn:Ef; [discriminate|].
    assert (Hin : In f (filter is_sess_term (sent (run c ops)))) by (rewrite Ef; left; reflexivity).
    apply filter_In in Hin. destruct Hin as [Hin Hf].
    destruct f as [h|[]]; try discriminate Hf. eauto.
  - intros (fl&r&Hin). destruct (in_term (run c ops)); [reflexivity|].
    assert (Hf : In (FMsg (MSessTerm fl r)) (filter is_sess_term (sent (run c ops)))).
    { apply filter_In. split; [exact Hin|reflexivity]. }
    destruct (filter is_sess_term (sent (run c ops))); [contradiction|discriminate].
Qed.
