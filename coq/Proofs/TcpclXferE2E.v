(** C01 end to end: the composition theorems of Proofs/TcpclXferProofs.v with
    the "acted on a prefix of what was sent" hypotheses replaced, through the
    channel lemma ([channel_acc], Proofs/TcpclChannelSent.v), by hypotheses
    about the octets on the wire.  Well-formedness and contact-first of what
    each side sent stay hypotheses here ([wf_A], [wf_B], [shape_A], [shape_B]):
    the first holds only under bounds on the configuration and the operations
    ([sent_wf], Proofs/TcpclSentProofs15.v), which these statements do not assume. *)
From Coq Require Import NArith List Bool.
From DTN Require Import Lib.Bytes Model.TcpclMsg Model.TcpclSess Model.TcpclXferSpec
  Proofs.TcpclXferSend Proofs.TcpclXferProofs Proofs.TcpclChannelProofs Proofs.TcpclChannelSent.
Import ListNotations.
Local Open Scope N_scope.

Section EndToEnd.
  Variables cA cB : cfg.
  Variables opsA opsB : list op.
  Let sA := run cA opsA.
  Let sB := run cB opsB.

  (** What each endpoint has read from its socket is a prefix of what the
      peer's socket accepted (reliable FIFO octet stream). *)
  Hypothesis net_AB : exists rest, wire sA = received (init cB) opsB ++ rest.
  Hypothesis net_BA : exists rest, wire sB = received (init cA) opsA ++ rest.
  (** Remaining side conditions of the channel lemma. *)
  Hypothesis wf_A : Forall wf_frame (sent sA).
  Hypothesis wf_B : Forall wf_frame (sent sB).
  Hypothesis shape_A : sent sA = [] \/ exists h ms, sent sA = FContact h :: map FMsg ms.
  Hypothesis shape_B : sent sB = [] \/ exists h ms, sent sB = FContact h :: map FMsg ms.

  Lemma chan_AB : prefix (handled sB) (sent sA).
  Proof. exact (channel_acc cA opsA cB opsB net_AB wf_A shape_A). Qed.
  Lemma chan_BA : prefix (handled sA) (sent sB).
  Proof. exact (channel_acc cB opsB cA opsA net_BA wf_B shape_B). Qed.

  Theorem C01_safety_e2e :
    let D := deliver_spec (handled sB) in
    map fst D = Nseq 1 (length D) /\ map snd D = firstn (length D) (queued cA opsA).
  Proof. exact (C01_safety_core cA cB opsA opsB chan_AB chan_BA). Qed.

  Theorem C01_success_e2e id len :
    In (ESig SigSendFinished [PStrNum id; PInt len; PStr RES_SUCCESS]) (trace sA) ->
    exists d, bundle_of (queued cA opsA) id = Some d /\ len = N.of_nat (length d) /\
              In (id, d) (deliver_spec (handled sB)).
  Proof. exact (C01_success_core cA cB opsA opsB chan_AB chan_BA id len). Qed.
End EndToEnd.
