(** C14: the endpoint model [Model/TcpclSess.v] negotiates its session
    settings correctly and keeps its keepalive and idle timers armed. *)
From Coq Require Import NArith List Lia.
From RecordUpdate Require Import RecordSet.
From DTN Require Import Model.TcpclMsg Model.TcpclSess Proofs.TcpclSessBasics
  Proofs.TcpclSessSpec.
Import ListNotations RecordSetNotations.
Local Open Scope N_scope.

(** The invariants of this file are records over the values they speak of and
    are applied to the fields of a state: a state that differs in other fields
    satisfies them by conversion, and most cases of an operation close by
    [exact]. *)

Record negv (c : cfg) (ss ic : bool) (this peer : option sessinit) (kt sz it : N) : Prop := {
  n_conn : ss = true -> ic = true;
  n_this : forall a, this = Some a -> a = si_of c;
  n_merge : forall a b, ss = true -> this = Some a -> peer = Some b -> ascii (si_nodeid b) = true ->
            kt = N.min (si_keepalive a) (si_keepalive b)
            /\ sz = N.min (c_seg_init c) (si_seg_mru b)
            /\ it = c_idle c;
  n_seg : sz <= c_seg_init c
}.
Definition neg (s : ep) : Prop :=
  negv (cf s) (in_sess s) (in_conn s) (sessinit_this s) (sessinit_peer s)
       (keepalive_time s) (seg_size s) (idle_time s).

(** One computed state: the values are those of the state before, or a header
    was taken, a SESS_INIT sent or taken, the intervals merged. *)
Ltac neg_leaf N :=
  unfold neg in *; ep_cbn;
  first [ exact N
        | destruct N as [A B C D]; split; intros; subst;
          repeat match goal with
                 | H : Some _ = Some _ |- _ => injection H as H; subst
                 | H : _ = true -> ?x = true, G : ?x = false |- _ => rewrite H in G by assumption
                 | |- _ /\ _ => split
                 end;
          cbn [si_keepalive si_seg_mru si_xfer_mru si_nodeid si_of] in *;
          first [ reflexivity | discriminate | congruence | lia | eauto ] ].

(** A contact header is only parsed before the session: [in_sess] is still unset. *)
Lemma neg_frame f s :
  neg s -> (forall m, f = FMsg m -> in_conn s = true) -> (forall c, f = FContact c -> in_conn s = false) ->
  neg (fst (recv_frame f s)).
Proof.
  intros N Hm Hc. destruct f as [c|m].
  - specialize (Hc _ eq_refl).
    assert (Hs : in_sess s = false).
    { destruct (in_sess s) eqn:E; [|reflexivity]. rewrite (n_conn _ _ _ _ _ _ _ _ N) in Hc; [discriminate Hc|exact E]. }
    destruct (recv_contact_spec c s); neg_leaf N.
  - specialize (Hm _ eq_refl). rewrite recv_msg_pr.
    destruct (handle_msg_spec m s); spec_cases; neg_leaf N.
Qed.

Lemma neg_run c ops : neg (run c ops).
Proof.
  apply run_invariant; [split; cbn; intros; try discriminate; lia|].
  apply (step_ind neg neg); try (intros; assumption).
  - (* only a read touches a field [neg] reads *)
    intros s o s' N _ Ho S. destruct S; try discriminate Ho; spec_cases; exact N.
  - intros s fr rest N _ Hp. apply neg_frame; [exact N| |].
    + intros m ->. eapply parse_frame_msg, Hp.
    + intros c0 ->. eapply parse_frame_contact, Hp.
Qed.

(** The negotiated keepalive interval is the minimum of the two SESS_INIT
    values, and this endpoint's value is the configured one.  The hypothesis on
    the peer's node id is necessary: [keepalive_min_refuted] below. *)
Theorem keepalive_min_partial : forall c ops a b,
  let s := run c ops in
  in_sess s = true -> sessinit_this s = Some a -> sessinit_peer s = Some b ->
  ascii (si_nodeid b) = true ->
  keepalive_time s = N.min (si_keepalive a) (si_keepalive b) /\ si_keepalive a = c_keepalive c.
Proof.
  intros c ops a b s Hs Ha Hb Hasc. destruct (neg_run c ops) as [A B C D]. fold s in A, B, C, D.
  split; [apply (C a b); assumption|].
  rewrite (B a Ha). subst s. rewrite cf_run. reflexivity.
Qed.

Theorem seg_le_mru_partial : forall c ops p,
  let s := run c ops in
  in_sess s = true -> sessinit_peer s = Some p -> ascii (si_nodeid p) = true ->
  sessinit_this s <> None ->
  seg_size s <= si_seg_mru p /\ seg_size s = N.min (c_seg_init c) (si_seg_mru p).
Proof.
  intros c ops p s Hs Hp Hasc Hth. destruct (neg_run c ops) as [A B C D]. fold s in A, B, C, D.
  destruct (sessinit_this s) as [a|] eqn:Ha; [|congruence].
  destruct (C a p Hs eq_refl Hp Hasc) as (_ & E & _). subst s. rewrite cf_run in E.
  split; [rewrite E; apply N.le_min_r|exact E].
Qed.

Theorem seg_le_init : forall c ops, seg_size (run c ops) <= c_seg_init c.
Proof. intros c ops. destruct (neg_run c ops) as [A B C D]. rewrite cf_run in D. exact D. Qed.

(** Counterexamples for the statements without the node-id hypothesis: a
    SESS_INIT whose node id does not decode sets [in_sess] and [sessinit_peer]
    but raises before the negotiated values are merged. *)
Definition cfg_p : cfg := mkCfg true [97] 30 60 1000 500 None.
Definition ops_bad_nodeid : list op :=
  [OStart; ORx (MAGIC ++ [4; 0]); ORx (encode_msg (MSessInit 20 400 1000 [200] []))].
Theorem keepalive_min_refuted :
  exists c ops a b,
    let s := run c ops in
    in_sess s = true /\ sessinit_this s = Some a /\ sessinit_peer s = Some b
    /\ keepalive_time s <> N.min (si_keepalive a) (si_keepalive b).
Proof.
  exists cfg_p, ops_bad_nodeid, (mkSI 30 1000 (2^64 - 1) [97]), (mkSI 20 400 1000 [200]).
  vm_compute. repeat split; congruence.
Qed.

(** For the segment size two SESS_INITs are needed (the size starts at 0). *)
Definition ops_bad_nodeid2 : list op :=
  [OStart; ORx (MAGIC ++ [4; 0]); ORx (encode_msg (MSessInit 20 400 1000 [98] []));
   ORx (encode_msg (MSessInit 20 100 1000 [200] []))].
Theorem seg_le_mru_refuted :
  exists c ops p,
    let s := run c ops in
    in_sess s = true /\ sessinit_peer s = Some p /\ ~ seg_size s <= si_seg_mru p.
Proof.
  exists cfg_p, ops_bad_nodeid2, (mkSI 20 100 1000 [200]).
  vm_compute. split; [reflexivity|]. split; [reflexivity|]. intros H. apply H. reflexivity.
Qed.

(** The invariant, on the values it speaks of: last send [ts], last read [tr],
    clock [nw], the two intervals, the two deadlines, [closed], [in_sess] and
    the role. *)
Record timv (ts tr nw it kt : N) (kd idd : option N) (cl ss pv : bool) : Prop := {
  t_s : ts <= nw;
  t_r : tr <= nw;
  t_idle_sess : 0 < it -> ss = true;
  t_ka_some : forall d, kd = Some d -> 0 < kt;
  t_idle_some : forall d, idd = Some d -> 0 < it;
  t_closed : cl = true -> kd = None /\ idd = None;
  t_ka : cl = false -> 0 < kt -> exists t, kd = Some (t + kt * 1000) /\ ts <= t <= nw;
  t_ka_passive : pv = true -> cl = false -> 0 < kt -> kd = Some (ts + kt * 1000);
  t_idle : cl = false -> 0 < it -> idd = Some (N.max ts tr + it * 1000)
}.

Definition tim (s : ep) : Prop :=
  timv (t_send s) (t_recv s) (now s) (idle_time s) (keepalive_time s) (ka_due s) (idle_due s)
       (closed s) (in_sess s) (c_passive (cf s)).

Definition armed (t iv : N) : option N := if 0 <? iv then Some (t + iv * 1000) else None.

Lemma armed_some t iv d : armed t iv = Some d -> 0 < iv.
Proof. unfold armed. destruct (N.ltb_spec 0 iv); [trivial|discriminate]. Qed.

Lemma armed_pos t iv : 0 < iv -> armed t iv = Some (t + iv * 1000).
Proof. unfold armed. intros H. apply N.ltb_lt in H. rewrite H. reflexivity. Qed.

(** The ways the values change.  Both timers are re-armed by a send ([ts = nw])
    and when the negotiated intervals are merged: that is while a frame is
    handled ([tr = nw]), on the passive side right after SESS_INIT was sent. *)
Lemma timv_arm ts tr nw it kt ss pv :
  ts <= nw -> tr <= nw -> N.max ts tr = nw -> (pv = true -> ts = nw) -> (0 < it -> ss = true) ->
  timv ts tr nw it kt (armed nw kt) (armed nw it) false ss pv.
Proof.
  intros A B M P C. split; try assumption; try discriminate; eauto using armed_some.
  - intros _ H. exists nw. split; [apply armed_pos, H|lia].
  - intros Hp _ H. rewrite (P Hp). apply armed_pos, H.
  - intros _ H. rewrite M. apply armed_pos, H.
Qed.

Lemma timv_close ts tr nw it kt ss pv :
  ts <= nw -> tr <= nw -> (0 < it -> ss = true) -> timv ts tr nw it kt None None true ss pv.
Proof. intros A B C. split; try assumption; try discriminate. auto. Qed.

Lemma timv_read ts tr nw it kt kd idd ss pv :
  timv ts tr nw it kt kd idd false ss pv -> timv ts nw nw it kt kd (armed nw it) false ss pv.
Proof.
  intros [A B C D E F G G' I]. split; try assumption; try discriminate; eauto using armed_some.
  - apply N.le_refl.
  - intros _ H. rewrite armed_pos by exact H. f_equal. lia.
Qed.

Lemma timv_advance dt ts tr nw it kt kd idd cl ss pv :
  timv ts tr nw it kt kd idd cl ss pv -> timv ts tr (nw + dt) it kt kd idd cl ss pv.
Proof.
  intros [A B C D E F G G' I]. split; try assumption; try lia.
  intros Hc Hk. destruct (G Hc Hk) as [t [Et Bt]]. exists t. split; [exact Et|lia].
Qed.

Lemma timv_sess ts tr nw it kt kd idd cl ss pv :
  timv ts tr nw it kt kd idd cl ss pv -> timv ts tr nw it kt kd idd cl true pv.
Proof. intros [A B C D E F G G' I]. split; auto. Qed.

(** One computed state: its values, by cases on whether it closed, are those of
    the state before or one of the changes above. *)
Ltac tim_leaf T :=
  unfold tim in *; ep_cbn;
  repeat match goal with
         | H : closed _ = _ |- _ => rewrite H in *
         | H : c_passive _ = _ |- _ => rewrite H in *
         | H : t_recv _ = now _ |- _ => rewrite H in *
         | |- context[if cst6 ?a ?b ?c ?d ?e ?f ?g then _ else _] => destruct (cst6 a b c d e f g)
         end;
  first [ exact T | exact (timv_sess _ _ _ _ _ _ _ _ _ _ T)
        | pose proof (t_s _ _ _ _ _ _ _ _ _ _ T); pose proof (t_r _ _ _ _ _ _ _ _ _ _ T);
          pose proof (t_idle_sess _ _ _ _ _ _ _ _ _ _ T);
          first [ apply timv_arm | apply timv_close ];
          first [ assumption | apply N.le_refl | reflexivity | discriminate | lia | auto ] ].

Lemma tim_frame f s : tim s -> closed s = false -> t_recv s = now s -> tim (fst (recv_frame f s)).
Proof.
  intros T Hc Hr. frame_cases f s; tim_leaf T.
Qed.

Lemma tim_idle_sess s d : tim s -> idle_due s = Some d -> in_sess s = true.
Proof. intros [A B C D E F G G' I] H. apply C, (E d H). Qed.

(** While the frames of one read are handled nothing has been received since. *)
Definition timr (s : ep) : Prop := tim s /\ t_recv s = now s.

Lemma tim_step : forall s o, tim s -> tim (step s o).
Proof.
  apply (step_ind tim timr).
  - intros s dt T. apply timv_advance, T.
  - intros s o s' T Hc Ho S. destruct S; try discriminate Ho; spec_cases; try solve [tim_leaf T].
    rewrite (tim_idle_sess s due T) in * by assumption. discriminate.
  - intros s data T Hc. split; [|reflexivity]. unfold tim in *. ep_cbn. rewrite Hc in *.
    exact (timv_read _ _ _ _ _ _ _ _ _ T).
  - intros s fr rest [T Hr] Hc _.
    destruct (frame_keeps fr (rx_taken fr rest s)) as (_ & _ & _ & _ & En & Et).
    split; [|rewrite En, Et; exact Hr]. apply tim_frame; assumption.
  - intros s [T _]. exact T.
  - intros s k [T _]. exact T.
Qed.

Lemma tim_run c ops : tim (run c ops).
Proof.
  apply run_invariant; [split; cbn; intros; try discriminate; try lia; auto|].
  intros s o. apply tim_step.
Qed.

(** A negotiated interval of 0 disables the keepalive timer. *)
Theorem keepalive_zero_disables : forall c ops,
  let s := run c ops in keepalive_time s = 0 -> ka_due s = None.
Proof.
  intros c ops s H. destruct (tim_run c ops) as [A B C D E F G G' I]. fold s in D.
  destruct (ka_due s) as [d|] eqn:Hd; [|reflexivity]. specialize (D d eq_refl). lia.
Qed.

(** The keepalive timer is armed for one interval after the last send (after the
    merge of the negotiated values, which re-arms it, if that came later). *)
Theorem keepalive_armed : forall c ops,
  let s := run c ops in
  closed s = false -> 0 < keepalive_time s ->
  exists t, ka_due s = Some (t + keepalive_time s * 1000) /\ t_send s <= t <= now s.
Proof. intros c ops s. destruct (tim_run c ops) as [A B C D E F G G' I]. exact G. Qed.

(** On the passive side the merge happens in the step that sends SESS_INIT: exact. *)
Theorem keepalive_armed_passive : forall c ops,
  let s := run c ops in
  c_passive c = true -> closed s = false -> 0 < keepalive_time s ->
  ka_due s = Some (t_send s + keepalive_time s * 1000).
Proof.
  intros c ops s Hp. destruct (tim_run c ops) as [A B C D E F G G' I]. fold s in G'.
  apply G'. subst s. rewrite cf_run. exact Hp.
Qed.

(** The active side need not be exact: after the peer's SESS_INIT the timer runs
    from the merge, not from the (earlier) last send. *)
Definition cfg_a : cfg := mkCfg false [97] 30 60 1000 500 None.
Example keepalive_armed_active_not_exact :
  let s := run cfg_a [OStart; ORx (MAGIC ++ [4; 0]); OAdvance 5000;
                      ORx (encode_msg (MSessInit 20 400 1000 [98] []))] in
  closed s = false /\ keepalive_time s = 20 /\ t_send s = 0 /\ now s = 5000 /\ ka_due s = Some 25000.
Proof. vm_compute. repeat split. Qed.

Theorem keepalive_sent : forall s d,
  ka_due s = Some d -> d <= now s -> closed s = false ->
  sent (step s OFireKa) = sent s ++ [FMsg MKeepalive].
Proof.
  intros s d Hd Hle Hc. apply N.leb_le in Hle. apply step_cases; [exact Hc|].
  intros x S. inversion S; subst; try congruence. ep_cbn. reflexivity.
Qed.

(** Hence: whenever the negotiated interval has elapsed since the timer was
    armed -- at the latest [keepalive_time] after now -- the timer callback sends a
    KEEPALIVE. *)
Theorem keepalive_fires : forall c ops,
  let s := run c ops in
  closed s = false -> 0 < keepalive_time s ->
  exists d, ka_due s = Some d
    /\ t_send s + keepalive_time s * 1000 <= d <= now s + keepalive_time s * 1000
    /\ forall dt, d <= now s + dt ->
         sent (step (step s (OAdvance dt)) OFireKa) = sent s ++ [FMsg MKeepalive].
Proof.
  intros c ops s Hc Hk. destruct (keepalive_armed c ops Hc Hk) as [t [E Bd]]. fold s in E, Bd.
  exists (t + keepalive_time s * 1000). split; [exact E|]. split; [lia|].
  intros dt Hdt. (* the advanced state differs from [s] in [now] only *)
  rewrite (keepalive_sent (step s (OAdvance dt)) (t + keepalive_time s * 1000));
    [reflexivity|exact E|exact Hdt|exact Hc].
Qed.

(** The idle timer is armed for one interval after the last send or receive. *)
Theorem idle_armed : forall c ops,
  let s := run c ops in
  closed s = false -> 0 < idle_time s ->
  idle_due s = Some (N.max (t_send s) (t_recv s) + idle_time s * 1000).
Proof. intros c ops s. destruct (tim_run c ops) as [A B C D E F G G' I]. exact I. Qed.

Theorem idle_zero_disables : forall c ops,
  let s := run c ops in idle_time s = 0 -> idle_due s = None.
Proof.
  intros c ops s H. destruct (tim_run c ops) as [A B C D E F G G' I]. fold s in E.
  destruct (idle_due s) as [d|] eqn:Hd; [|reflexivity]. specialize (E d eq_refl). lia.
Qed.

Theorem closed_no_timers : forall c ops,
  let s := run c ops in closed s = true -> ka_due s = None /\ idle_due s = None.
Proof. intros c ops s. destruct (tim_run c ops) as [A B C D E F G G' I]. exact F. Qed.

(** When the idle timer fires in an established, not yet terminating session
    the endpoint sends SESS_TERM with reason 1 (idle timeout). *)
Theorem idle_term : forall c ops d,
  let s := run c ops in
  idle_due s = Some d -> d <= now s -> in_term s = false -> in_sess s = true ->
  sent (step s OFireIdle) = sent s ++ [FMsg (MSessTerm 0 1)].
Proof.
  intros c ops d s Hd Hle Ht Hs.
  assert (Hc : closed s = false).
  { destruct (closed s) eqn:Hc; [|reflexivity].
    destruct (closed_no_timers c ops Hc) as [_ X]. fold s in X. congruence. }
  apply N.leb_le in Hle. apply step_cases; [exact Hc|].
  intros x S. inversion S; subst; try congruence. ep_cbn. reflexivity.
Qed.

(** On a run an armed idle timer means an established session on an open endpoint. *)
Theorem idle_armed_in_session : forall c ops d,
  let s := run c ops in idle_due s = Some d -> in_sess s = true /\ closed s = false.
Proof.
  intros c ops d s Hd. destruct (tim_run c ops) as [A B C D E F G G' I]. fold s in C, E, F.
  split; [eapply tim_idle_sess; [apply tim_run|exact Hd]|].
  destruct (closed s); [destruct (F eq_refl); congruence|reflexivity].
Qed.

(** When it fires in a session that is already terminating the endpoint closes. *)
Theorem terminating_closes : forall s d,
  idle_due s = Some d -> d <= now s -> in_term s = true -> closed (step s OFireIdle) = true.
Proof.
  intros s d Hd Hle Ht. apply N.leb_le in Hle.
  destruct (closed s) eqn:Hc; [rewrite step_closed by exact Hc; exact Hc|].
  apply step_cases; [exact Hc|]. intros x S. inversion S; subst; try congruence. reflexivity.
Qed.
