(** Tie between the endpoint model's [send_next] and the segment-producing part
    of ContactHandler._process_queue of tcpcl/session.py, regenerated on every
    run (Gen/TcpclSendNext.v): which segment is sent (flags, transfer-length
    extension, how many octets from which offset), the new offset, and whether
    the item moves to the set awaiting the final acknowledgement.  The
    statement is about the text of [send_next], which the proof unfolds. *)
From Coq Require Import NArith List Bool Lia PeanoNat.
From RecordUpdate Require Import RecordSet.
From DTN Require Import Lib.Bytes Model.TcpclMsg Model.TcpclSess Gen.TcpclSendNext.
Import ListNotations RecordSetNotations.
Local Open Scope N_scope.

Lemma firstn_min {A} n (l : list A) : firstn (Nat.min n (length l)) l = firstn n l.
Proof.
  destruct (Nat.le_gt_cases n (length l)) as [H|H].
  - rewrite Nat.min_l by exact H. reflexivity.
  - rewrite Nat.min_r by lia. rewrite firstn_all, firstn_all2 by lia. reflexivity.
Qed.

(** Reading up to [sz] octets from offset [off] of a file holding [data]. *)
Lemma read_len (sz off : N) (data : bytes) :
  N.of_nat (length (firstn (N.to_nat sz) (skipn (N.to_nat off) data)))
  = N.min sz (N.of_nat (length data) - off).
Proof. rewrite firstn_length, skipn_length. lia. Qed.

Lemma read_seg (sz off : N) (data : bytes) :
  firstn (N.to_nat (N.min sz (N.of_nat (length data) - off))) (skipn (N.to_nat off) data)
  = firstn (N.to_nat sz) (skipn (N.to_nat off) data).
Proof.
  rewrite <- (firstn_min (N.to_nat sz)). f_equal. rewrite skipn_length. lia.
Qed.

Theorem tie_send_next s id data : tx_tmp s = Some (id, data) ->
  send_next s =
  match gen_send_next (seg_size s) (tx_len s) (N.of_nat (length data)) true false with
  | None => s
  | Some o =>
      let seg := firstn (N.to_nat (so_dlen o)) (skipn (N.to_nat (tx_len s)) data) in
      let ext := match so_ext_total o with Some t => total_length_ext t | None => [] end in
      let s1 := send_msg (MXferSeg (so_flags o) id ext seg) (s <| tx_len := so_newlen o |>) in
      if so_moved o
      then pq_trigger (s1 <| pend_ack := pend_ack s1 ++ [id] |> <| tx_tmp := None |> <| tx_len := 0 |>)
      else s1
  end.
Proof.
  intros H. unfold send_next. rewrite H. unfold gen_send_next.
  destruct ((tx_len s =? N.of_nat (length data)) && (0 <? tx_len s)); [reflexivity|].
  cbv zeta. cbn [so_flags so_ext_total so_dlen so_newlen so_moved].
  rewrite read_seg, read_len.
  unfold FLAG_START, FLAG_END.
  destruct (tx_len s =? 0);
    destruct (tx_len s + N.min (seg_size s) (N.of_nat (length data) - tx_len s) =? N.of_nat (length data)).
  (* the flags are evaluated by hand: left to [reflexivity], [has_end] of the
     unevaluated sum is decided only after the two states have been unfolded *)
  - change (N.lor (N.lor 0 2) 1) with 3. change (2 + 1) with 3. change (has_end 3) with true. cbv iota. reflexivity.
  - change (N.lor 0 2) with 2. change (2 + 0) with 2. change (has_end 2) with false. cbv iota. reflexivity.
  - change (N.lor 0 1) with 1. change (0 + 1) with 1. change (has_end 1) with true. cbv iota. reflexivity.
  - change (0 + 0) with 0. change (has_end 0) with false. cbv iota. reflexivity.
Qed.

(** With the acknowledgement switch on and the test extension off (how the
    endpoint model runs) the other two outputs are off. *)
Theorem tie_send_next_switches sz off total o :
  gen_send_next sz off total true false = Some o -> so_priv o = false /\ so_unack o = false.
Proof.
  unfold gen_send_next. destruct ((off =? total) && (0 <? off)); [discriminate|]. cbv zeta.
  intros E. inversion E. cbn. rewrite andb_false_r. split; reflexivity.
Qed.
