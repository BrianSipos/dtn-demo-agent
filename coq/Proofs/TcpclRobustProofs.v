(** C17: the endpoint answers out-of-place peer messages without corrupting
    its state; event-loop callbacks never let an exception escape; own queued
    transfers are unaffected by a rejected message.  About [Model/TcpclSess.v]. *)
From Coq Require Import NArith List Lia.
From RecordUpdate Require Import RecordSet.
From DTN Require Import Lib.Bytes Model.TcpclMsg Model.TcpclSess Proofs.TcpclSessBasics
  Proofs.TcpclSessSpec Proofs.TcpclRobustC14.
From DTN Require Proofs.TcpclSentProofs5.
Import ListNotations RecordSetNotations.
Local Open Scope N_scope.

(** The event-loop callbacks (everything that is not a D-Bus method call). *)
Definition non_user (o : op) : bool :=
  match o with
  | ORx _ | ORxEof | OTxPump _ _ | OPQ | OFireKa | OFireIdle | OAdvance _ => true
  | OStart | OSend _ | OTerm _ | OClose | OPop _ => false
  end.

(** A SESS_INIT whose node id is ASCII (the model treats every other node id as
    undecodable; a node id that is not UTF-8 is not a well-formed message). *)
Definition sessinit_ascii (f : frame) : Prop :=
  match f with
  | FMsg (MSessInit _ _ _ nodeid _) => ascii nodeid = true
  | _ => True
  end.

Definition is_exc (e : event) : bool := match e with EExc _ => true | _ => false end.
Definition noexc (e : event) : Prop := is_exc e = false.

(** What [start()] establishes and every operation keeps (a record over values,
    applied to the fields of a state, as the invariants of [TcpclRobustC14]). *)
Record inv17v (pv : bool) (ch : option N) (cl ic : bool) (si : option sessinit) : Prop := {
  i_ch : pv = false -> ch <> None;
  i_si : cl = false -> ic = true -> pv = false -> si <> None
}.
Definition inv17 (s : ep) : Prop :=
  inv17v (c_passive (cf s)) (conhead_this s) (closed s) (in_conn s) (sessinit_this s).

(** One computed state: the five values are those of the state before, or a
    header or SESS_INIT has just been sent, or the endpoint has closed. *)
Ltac inv17_leaf I :=
  unfold inv17 in *; ep_cbn;
  first [ exact I
        | destruct I as [A B]; split; intros; repeat brk_any; first [discriminate | congruence | auto] ].

Lemma inv17_frame f s : inv17 s -> inv17 (fst (recv_frame f s)).
Proof. intros I. frame_cases f s; inv17_leaf I. Qed.

Lemma inv17_step s o : inv17 s -> inv17 (step s o).
Proof.
  apply (step_ind inv17 inv17); try (intros; assumption).
  - intros s0 o0 s' I _ Ho S. destruct S; try discriminate Ho; spec_cases; inv17_leaf I.
  - intros s0 fr rest I _ _. apply inv17_frame, I.
Qed.

Lemma inv17_start c : inv17 (step (init c) OStart).
Proof.
  apply step_cases; [reflexivity|].
  intros s S. inversion S; subst; split; ep_cbn; cbn in *; intros; congruence.
Qed.

(** The agent starts the handler first: every later state satisfies the invariant. *)
Lemma inv17_run c ops : inv17 (run c (OStart :: ops)).
Proof.
  unfold run. cbn [fold_left]. apply run_invariant_from; [apply inv17_start|].
  intros s o. apply inv17_step.
Qed.

Lemma noexc_flush l : Forall noexc (map TcpclXferSpec.term_ev l).
Proof. induction l; cbn [map]; constructor; [reflexivity|assumption]. Qed.

(** [noexc] of a literal event, or of the reports of a flush. *)
Ltac noexc_tac := first [ reflexivity | apply noexc_flush ].

Lemma frame_noexc f s : ext_by noexc s (fst (recv_frame f s)).
Proof.
  frame_cases f s; unfold ext_by; ep_cbn; unfold ev_rstart, ev_rfin, ev_rinter, ev_sfin, ev_sinter;
    ext_shape noexc_tac.
Qed.

(** No exception leaves the handling of a frame: the ways it could (a contact
    header before [start()], [merge_session_params] without [sessinit_this], a
    node id that does not decode) are excluded. *)
Lemma frame_no_escape f s :
  inv17 s -> closed s = false -> (forall m, f = FMsg m -> in_conn s = true) -> sessinit_ascii f ->
  snd (recv_frame f s) = None.
Proof.
  intros [A B] Hc Hi Ha. destruct f as [c|m].
  - destruct (recv_contact_spec c s); try reflexivity. exfalso. apply A; assumption.
  - specialize (Hi m eq_refl). rewrite recv_msg_pr.
    destruct (handle_msg_spec m s); try reflexivity; cbn [sessinit_ascii] in Ha; try congruence.
    exfalso. apply B; assumption.
Qed.

(** One callback of the event loop in a state satisfying the invariant and the
    timer invariant [tim] of [TcpclRobustC14] (for: an armed idle timer means a session): it
    only adds events that are not exceptions, and the receive watch stays.
    For a read: a frame that lets an exception escape is in [handled], and is a
    SESS_INIT with an undecodable node id ([frame_no_escape]). *)
Lemma step_nonuser_noexc s o :
  inv17 s -> tim s -> non_user o = true -> Forall sessinit_ascii (handled (step s o)) ->
  ext_by noexc s (step s o) /\ rx_alive (step s o) = rx_alive s.
Proof.
  intros I T Hn.
  destruct (closed s) eqn:Hc.
  { rewrite step_closed by exact Hc. intros _.
    destruct o; split; first [apply ext_refl|reflexivity|apply ext_same; reflexivity]. }
  destruct (step_spec s o Hc); try discriminate Hn; spec_cases;
    try (intros _; split; [ unfold ext_by; ep_cbn; ext_shape noexc_tac
                          | ep_cbn; first [reflexivity | assumption | congruence] ]).
  - (* ORx *)
    apply (recv_raw_ind (fun s' => inv17 s' /\ ext_by noexc s s' /\ rx_alive s' = rx_alive s)
             (fun s' => Forall sessinit_ascii (handled s') -> ext_by noexc s s' /\ rx_alive s' = rx_alive s)).
    + split; [exact I|]. split; [apply ext_same|]; reflexivity.
    + intros s0 fr rest s' r (I0 & He & Ha) Hc0 Hp Hr.
      destruct (frame_keeps fr (rx_taken fr rest s0)) as (_ & Eh & _ & Ea & _).
      rewrite Hr in Eh, Ea. cbn [fst] in Eh, Ea.
      assert (I1 : inv17 (rx_taken fr rest s0)) by exact I0.
      destruct r as [k|].
      * ep_cbn. rewrite Eh. ep_cbn. intros F. exfalso.
        apply Forall_app in F. destruct F as [_ F]. inversion F; subst.
        assert (X : snd (recv_frame fr (rx_taken fr rest s0)) = None).
        { apply frame_no_escape; try assumption. intros m ->. ep_cbn. eapply parse_frame_msg, Hp. }
        rewrite Hr in X. discriminate X.
      * split; [|split].
        -- pose proof (inv17_frame fr _ I1) as X. rewrite Hr in X. exact X.
        -- eapply ext_trans; [exact He|]. pose proof (frame_noexc fr (rx_taken fr rest s0)) as X.
           rewrite Hr in X. exact X.
        -- rewrite Ea. exact Ha.
    + intros s' (_ & He & Ha) _. split; assumption.
  - (* the idle timer is only armed in a session *)
    rewrite (tim_idle_sess s due T) in * by assumption. discriminate.
Qed.

Theorem no_escape : forall c ops o,
  non_user o = true ->
  let s := run c (OStart :: ops) in
  Forall sessinit_ascii (handled (step s o)) ->
  (exists evs, trace (step s o) = trace s ++ evs /\ forall k, ~ In (EExc k) evs)
  /\ rx_alive (step s o) = rx_alive s.
Proof.
  intros c ops o Hn s Hh.
  destruct (step_nonuser_noexc s o (inv17_run c ops) (tim_run c _) Hn Hh) as [[evs [E F]] Ha].
  split; [|exact Ha]. exists evs. split; [exact E|].
  intros k Hin. rewrite Forall_forall in F. specialize (F _ Hin). discriminate F.
Qed.

(** Without [start()] first the statement is false: an active endpoint that
    reads a contact header raises AttributeError ([conhead_this] is unset). *)
Definition cfg_active : cfg := mkCfg false [97] 30 60 1000 1000 None.
Example no_escape_needs_start :
  trace (run cfg_active [ORx (MAGIC ++ [4; 0])]) = [EExc EX_ATTRIBUTE]
  /\ rx_alive (run cfg_active [ORx (MAGIC ++ [4; 0])]) = false.
Proof. vm_compute. split; reflexivity. Qed.

(** Nor without the hypothesis on node ids. *)
Example no_escape_needs_ascii :
  let ops := [OStart; ORx (MAGIC ++ [4; 0]);
              ORx (encode_msg (MSessInit 30 1000 1000 [200] []))] in
  trace (run cfg_active ops)
  = [ESig SigState [PStr ST_CONTACT]; ESig SigState [PStr ST_SESSNEG]; EExc EX_UNICODE].
Proof. vm_compute. reflexivity. Qed.

Lemma term_twice s r :
  closed s = false -> in_sess s = true -> in_term s = true ->
  step s (OTerm r) = emit (EExc EX_RUNTIME) s.
Proof.
  intros Hc Hs Ht. apply (step_cases (fun x => x = _)); [exact Hc|].
  intros x S. inversion S; subst; first [reflexivity|congruence].
Qed.

Lemma pop_unknown s id :
  closed s = false -> dict_get id (rx_map s) = None ->
  step s (OPop id) = emit (EExc EX_KEY) s.
Proof.
  intros Hc Hg. apply (step_cases (fun x => x = _)); [exact Hc|].
  intros x S. inversion S; subst; first [reflexivity|congruence].
Qed.

(** Events a user operation [o] may add in state [s]: anything but an
    exception, except in exactly the three documented error cases. *)
Definition user_ev (s : ep) (o : op) (e : event) : Prop :=
  noexc e
  \/ (e = EExc EX_RUNTIME /\ exists r, o = OTerm r /\ closed s = false /\ in_sess s = true /\ in_term s = true)
  \/ (e = EExc EX_KEY /\ exists id, o = OPop id /\ closed s = false /\ dict_get id (rx_map s) = None)
  \/ (e = EExc EX_RUNTIME /\ exists d, o = OSend d /\ closed s = false /\ in_term s = true).

Lemma flush_user s o l : Forall (user_ev s o) (map TcpclXferSpec.term_ev l).
Proof. eapply Forall_impl; [|apply noexc_flush]. intros e H. left. exact H. Qed.

Lemma step_user_events s o : non_user o = false -> ext_by (user_ev s o) s (step s o).
Proof.
  intros Hn. destruct (closed s) eqn:Hc.
  { rewrite step_closed by exact Hc. destruct o; try discriminate Hn; apply ext_refl. }
  destruct (step_spec s o Hc); try discriminate Hn;
    try solve [unfold ext_by; ep_cbn; ext_shape ltac:(first [left; reflexivity | apply flush_user])].
  (* the three errors returned to the caller *)
  all: eexists; split; [ep_cbn; reflexivity|]; constructor; [|constructor]; unfold user_ev; eauto 12.
Qed.

(** Every exception event of a run that starts with [start()] and parses only
    decodable node ids was returned to a D-Bus caller: RuntimeError by a
    [terminate()] or a [send_bundle_data()] (both: session already terminating)
    and KeyError by a [recv_bundle_pop_data()]. *)
Theorem exc_only_user : forall c ops,
  Forall sessinit_ascii (handled (run c (OStart :: ops))) ->
  forall k, In (EExc k) (trace (run c (OStart :: ops))) ->
    (k = EX_RUNTIME /\ ((exists r, In (OTerm r) ops) \/ (exists d, In (OSend d) ops)))
    \/ (k = EX_KEY /\ exists id, In (OPop id) ops).
Proof.
  intros c ops Hh k Hin. unfold run in *. cbn [fold_left] in *. set (s0 := step (init c) OStart) in *.
  destruct (run_events (fun l => Forall sessinit_ascii (handled (fold_left step l s0))) (fun _ s => inv17 s /\ tim s)
              noexc (fun o e => exists s, user_ev s o e) s0) with (ops := ops) as [_ F]; try assumption.
  - split; [apply inv17_start|apply tim_step, (tim_run c [])].
  - destruct (step_user_events (init c) OStart eq_refl) as [evs [E F]]. fold s0 in E. rewrite E.
    eapply Forall_impl; [|exact F].
    intros e [H|[[_ [? [? _]]]|[[_ [? [? _]]]|[_ [? [? _]]]]]]; [exact H|..]; discriminate.
  - intros pre o. rewrite fold_left_app. cbn [fold_left].
    destruct (TcpclSentProofs5.step_mono (fold_left step pre s0) o) as (_ & _ & _ & l & ->). intros H. apply Forall_app in H. tauto.
  - intros pre o Hp s [I T]. split; [split; [apply inv17_step, I|apply tim_step, T]|].
    rewrite fold_left_app in Hp.
    destruct (non_user o) eqn:Hn.
    + eapply ext_mono; [|apply (step_nonuser_noexc s o I T Hn Hp)]. intros e He. exists s. left. exact He.
    + eapply ext_mono; [|apply step_user_events, Hn]. intros e He. exists s. exact He.
  - rewrite Forall_forall in F.
    destruct (F _ Hin) as [F0|[o [Ho [s [F0|[[E [r [-> _]]]|[[E [id [-> _]]]|[E [d [-> _]]]]]]]]]].
    1,2: discriminate F0.
    all: injection E as ->; eauto 7.
Qed.

(** A rejected message leaves the handler's state alone, except that an
    XFER_ACK(END) for a transfer that is known but not awaiting its final
    acknowledgement has already recorded the acknowledged length. *)
Lemma reject_state m s s' r :
  handle_msg m s = (s', Reject r) ->
  r = REJ_UNEXPECTED /\
  (s' = s \/ exists flags xid len a, m = MXferAck flags xid len /\ dict_get xid (tx_map s) = Some a
                                    /\ s' = s <| tx_map := dict_set xid len (tx_map s) |>).
Proof.
  destruct (handle_msg_spec m s); intros E; try discriminate E; injection E as <- <-;
    (split; [reflexivity|]); try (left; reflexivity).
  right. do 4 eexists. split; [reflexivity|]. split; [eassumption|reflexivity].
Qed.

(** Every rejected message is answered by exactly one MSG_REJECT. *)
Theorem answered : forall m s s' r,
  handle_msg m s = (s', Reject r) ->
  recv_frame (FMsg m) s = (send_msg (MReject (msg_id m) r) s', None)
  /\ sent (fst (recv_frame (FMsg m) s)) = sent s ++ [FMsg (MReject (msg_id m) r)]
  /\ r = REJ_UNEXPECTED.
Proof.
  intros m s s' r H. cbn [recv_frame]. rewrite H. split; [reflexivity|].
  destruct (reject_state _ _ _ _ H) as [-> [->|(flags & xid & len & a & -> & _ & ->)]];
    (split; [|reflexivity]); ep_unf; ep_pr; ep_cbn; reflexivity.
Qed.

Lemma reject_before_session m s :
  in_sess s = false ->
  match m with MXferSeg _ _ _ _ | MXferAck _ _ _ | MXferRefuse _ _ | MSessTerm _ _ => True | _ => False end ->
  handle_msg m s = (s, Reject REJ_UNEXPECTED).
Proof.
  intros H Hm. apply (hm_cases (fun r => r = _)). intros r S.
  destruct S; try contradiction; first [reflexivity|congruence].
Qed.

Lemma reject_segment_no_transfer flags xid ext data s :
  in_sess s = true -> has_start flags = false ->
  match rx_tmp s with Some (cur, _) => (cur =? xid) = false | None => True end ->
  handle_msg (MXferSeg flags xid ext data) s = (s, Reject REJ_UNEXPECTED).
Proof.
  intros H1 H2 H3. apply (hm_cases (fun r => r = _)). intros r S.
  inversion S; subst; try reflexivity; try congruence.
  (* the transfer being received is another one *)
  match goal with E : rx_tmp s = Some _ |- _ => rewrite E in H3 end. congruence.
Qed.

Lemma reject_ack_unknown flags xid len s :
  in_sess s = true -> ~ In xid (map fst (tx_map s)) ->
  handle_msg (MXferAck flags xid len) s = (s, Reject REJ_UNEXPECTED).
Proof.
  intros H1 H2. apply dict_get_none_keys in H2. apply (hm_cases (fun r => r = _)). intros r S.
  inversion S; subst; first [reflexivity|congruence].
Qed.

Lemma reject_refuse_unknown reason xid s :
  in_sess s = true -> ~ In xid (map fst (tx_map s)) ->
  handle_msg (MXferRefuse reason xid) s = (s, Reject REJ_UNEXPECTED).
Proof.
  intros H1 H2. apply dict_get_none_keys in H2. apply (hm_cases (fun r => r = _)). intros r S.
  inversion S; subst; first [reflexivity|congruence].
Qed.

(** A contact header with the wrong magic or version closes the connection. *)
Lemma bad_contact_closes c s :
  contact_ok c = false ->
  let s' := fst (recv_frame (FContact c) s) in
  snd (recv_frame (FContact c) s) = None /\ closed s' = true /\ sent s' = sent s
  /\ (closed s = false ->
      trace s' = (trace s ++ map (fun it : N * bytes =>
                                   ESig SigSendFinished [PStrNum (fst it); PInt 0; PStr RES_TERMINATING])
                                (pend_start s)) ++ [EClosed]).
Proof.
  intros H s'. subst s'. destruct (recv_contact_spec c s); try congruence.
  cbn [fst snd]. ep_cbn. split; [reflexivity|]. split; [reflexivity|]. split; [reflexivity|].
  intros ->. reflexivity.
Qed.

(** An unknown message type is never complete: the stream stalls (a known finding). *)
Lemma unknown_type_stalls : forall id rest, (id = 0 \/ 8 <= id) -> parse_msg (id :: rest) = None.
Proof.
  intros id rest H. cbn [parse_msg]. unfold parse_body.
  repeat match goal with |- context[?a =? ?b] => destruct (N.eqb_spec a b); [lia|] end.
  reflexivity.
Qed.

Lemma unknown_type_stalls_rx id rest data s :
  (id = 0 \/ 8 <= id) -> closed s = false -> rx_alive s = true -> in_conn s = true ->
  rx_buf s = id :: rest -> data <> [] ->
  let s' := step s (ORx data) in
  rx_buf s' = rx_buf s ++ data /\ handled s' = handled s /\ sent s' = sent s /\ trace s' = trace s.
Proof.
  intros Hid Hc Ha Hi Hb Hd s'. subst s'. apply step_cases; [exact Hc|].
  intros x S. inversion S; subst.
  - destruct data; [congruence|]. rewrite Ha in *. discriminate.
  - (* the loop is entered and stops at once: nothing parses *)
    apply (recv_raw_ind (fun s' => s' = rx_begin data s)); [reflexivity| |intros s' ->; ep_cbn; repeat split].
    intros s0 fr rest' s' r -> _ Hp _. exfalso. revert Hp. ep_cbn. rewrite Hi, Hb. unfold parse_frame.
    cbn [app]. rewrite unknown_type_stalls by exact Hid. discriminate.
Qed.

(** A rejected message does not touch the endpoint's own transfers. *)
Theorem own_transfers_unaffected : forall m s s' r,
  handle_msg m s = (s', Reject r) ->
  pend_start s' = pend_start s /\ tx_tmp s' = tx_tmp s /\ tx_len s' = tx_len s
  /\ pend_ack s' = pend_ack s /\ map fst (tx_map s') = map fst (tx_map s)
  /\ rx_map s' = rx_map s /\ rx_tmp s' = rx_tmp s /\ next_id s' = next_id s.
Proof.
  intros m s s' r H.
  destruct (reject_state _ _ _ _ H) as [_ [->|(flags & xid & len & a & -> & Hg & ->)]].
  - repeat split.
  - ep_cbn. repeat split. eapply dict_set_keys. exact Hg.
Qed.
