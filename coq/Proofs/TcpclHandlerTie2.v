(** Tie between the control structure of the endpoint model and the decision
    functions that translate/targets/tcpclhandlers.py regenerates from
    tcpcl/session.py on every run (Gen/TcpclControl.v): the entry guards of
    ContactHandler._process_queue, Messenger._idle_timeout,
    ContactHandler.terminate, the loop condition of Messenger.recv_raw, the
    guards and the REPLY flag of Messenger.send_sess_term, and the SESS_TERM
    branch of Messenger.recv_message.  Each lemma says that the model function
    is the generated decision followed by the corresponding model action, for
    every state; a moved, dropped or altered guard in the code changes the
    generated function and the lemma stops checking.  The statements are about
    the text of the model functions, so the proofs unfold these and not their
    specifications. *)
From Coq Require Import NArith List Bool.
From RecordUpdate Require Import RecordSet.
From DTN Require Import Lib.Bytes Model.TcpclMsg Model.TcpclSess Model.TcpclHandlerSt Gen.TcpclControl
  Proofs.TcpclSessSpec.
Import ListNotations RecordSetNotations.
Local Open Scope N_scope.

Theorem tie_process_queue s :
  process_queue s =
  match gen_pq_guard (is_none (tx_tmp s)) (in_sess s) (in_term s) (is_nil (pend_start s)) with
  | PqReturn keep => (s <| pq_set := false |>, keep)
  | PqContinue => (send_next (s <| pq_set := false |>), false)
  | PqStart =>
      match pend_start s with
      | (id, data) :: rest =>
          (send_next (emit (ESig SigSendStarted [PStrNum id; PInt (N.of_nat (length data))])
                           (s <| pq_set := false |> <| pend_start := rest |> <| tx_tmp := Some (id, data) |>
                              <| tx_len := 0 |>)), false)
      | [] => (s <| pq_set := false |>, false)
      end
  end.
Proof.
  unfold process_queue, gen_pq_guard, is_none, is_nil. ep_cbn.
  destruct (tx_tmp s) as [p|]; [reflexivity|].
  destruct (in_sess s); [|reflexivity]. destruct (in_term s); [reflexivity|].
  destruct (pend_start s) as [|[id data] rest]; reflexivity.
Qed.

Theorem tie_idle_timeout s due : closed s = false -> idle_due s = Some due -> (due <=? now s) = true ->
  step s OFireIdle =
  match gen_idle_timeout (in_sess s) (in_term s) (is_sess_idle s) with
  | IdleClose => do_close (s <| idle_due := None |>)
  | IdleTerm reason reply => escape (send_sess_term reason reply (s <| idle_due := None |>))
  | IdleNothing => s <| idle_due := None |>
  end.
Proof.
  intros Hc Hd Hn. unfold step, gen_idle_timeout. rewrite Hc, Hd, Hn. ep_cbn.
  destruct (in_term s); reflexivity.
Qed.

Theorem tie_terminate s reason : closed s = false ->
  step s (OTerm reason) =
  match gen_terminate reason (in_sess s) (in_term s) (is_sess_idle s) with
  | TermClose => do_close s
  | TermSend r reply => escape (send_sess_term r reply s)
  | TermNothing => s
  end.
Proof. intros Hc. unfold step, gen_terminate. rewrite Hc. destruct (in_sess s); reflexivity. Qed.

Theorem tie_rx_loop fuel s :
  recv_loop (S fuel) s =
  if gen_rx_loop_guard (negb (is_nil (rx_buf s))) (negb (closed s)) then
    match parse_frame (in_conn s) (rx_buf s) with
    | None => ok s
    | Some (fr, rest) =>
        match recv_frame fr (s <| rx_buf := rest |> <| handled := handled s ++ [fr] |>) with
        | (s', None) => recv_loop fuel s'
        | (s', Some k) => raise k s'
        end
    end
  else ok s.
Proof.
  cbn [recv_loop]. unfold gen_rx_loop_guard. destruct (is_nil (rx_buf s)), (closed s); reflexivity.
Qed.

Theorem tie_send_sess_term reason reply s :
  send_sess_term reason reply s =
  if gen_sst_raises (in_sess s) (in_term s) then raise EX_RUNTIME s
  else ok (send_msg (MSessTerm (gen_sst_flags reply) reason) (set_state ST_ENDING (s <| in_term := true |>))).
Proof.
  unfold send_sess_term, gen_sst_raises, gen_sst_flags.
  destruct (in_sess s), (in_term s), reply; reflexivity.
Qed.

Theorem tie_term_dispatch fl reason s :
  handle_msg (MSessTerm fl reason) s =
  if gen_term_reject (in_sess s) (in_term s) then (s, Reject REJ_UNEXPECTED)
  else
    let '(s1, exc) := if gen_term_reply (in_sess s) (in_term s) then send_sess_term reason true s else (s, None) in
    match exc with
    | Some k => (s1, Escaped k)
    | None => (check_sess_term (flush_pend_start s1), Done)
    end.
Proof.
  unfold handle_msg, gen_term_reject, gen_term_reply. destruct (in_sess s), (in_term s); reflexivity.
Qed.

(** send_bundle_data -> _add_queue_item: refused (RuntimeError to the caller,
    nothing else changes) exactly when the generated guard says so; otherwise
    the bundle is queued under a fresh id and a queue run is requested. *)
Theorem tie_send_bundle s data : closed s = false ->
  step s (OSend data) =
  if gen_add_queue_refused (in_sess s) (in_term s) then emit (EExc EX_RUNTIME) s
  else
    emit (ERet 1 (PStrNum (next_id s)))
         (pq_trigger (s <| next_id := next_id s + 1 |> <| pend_start := pend_start s ++ [(next_id s, data)] |>
                        <| tx_map := dict_set (next_id s) 0 (tx_map s) |>)).
Proof. intros Hc. unfold step, gen_add_queue_refused. rewrite Hc. destruct (in_term s); reflexivity. Qed.
