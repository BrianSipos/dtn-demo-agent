(** Proofs about the reassembly model Model/BpReasm.v (property C06).  One step of the agent is
    specified once ([recv_spec]).  A fragment of another identity leaves the slot and the seen
    identities of [k] alone ([step_other], [no_mixing_trace]), so every statement about [k] is proved
    for histories of [k]'s own fragments from an arbitrary state ([no_early_own], [safety_own],
    [live_own]) and carried over to any history from [init]. *)
From Coq Require Import NArith List Bool Lia ZifyBool.
From DTN Require Import Lib.Bytes Lib.Ivl Lib.IvlProofs Model.BpReasm.
Import ListNotations.
Local Open Scope N_scope.

Lemma id_eqb_eq a b : id_eqb a b = true <-> a = b.
Proof.
  destruct a as [[a1 a2] a3], b as [[b1 b2] b3]. unfold id_eqb. rewrite !andb_true_iff, !N.eqb_eq. split.
  - intros [[-> ->] ->]. reflexivity.
  - intros H. inversion H. auto.
Qed.

Lemma id_eqb_refl a : id_eqb a a = true.
Proof. apply id_eqb_eq. reflexivity. Qed.

Lemma id_eqb_neq a b : id_eqb a b = false <-> a <> b.
Proof.
  split.
  - intros H E. apply id_eqb_eq in E. congruence.
  - intros H. destruct (id_eqb a b) eqn:E; [|reflexivity]. apply id_eqb_eq in E. contradiction.
Qed.

Lemma id_eqb_sym a b : id_eqb a b = id_eqb b a.
Proof.
  destruct (id_eqb a b) eqn:E.
  - apply id_eqb_eq in E. subst. symmetry. apply id_eqb_refl.
  - apply id_eqb_neq in E. symmetry. apply id_eqb_neq. congruence.
Qed.

Lemma tbl_get_set k k' e t : tbl_get k' (tbl_set k e t) = if id_eqb k' k then Some e else tbl_get k' t.
Proof.
  induction t as [|[k2 e2] r IH]; cbn [tbl_set tbl_get]; [reflexivity|].
  destruct (id_eqb k k2) eqn:E; cbn [tbl_get].
  - apply id_eqb_eq in E. subst k2. destruct (id_eqb k' k); reflexivity.
  - rewrite IH. destruct (id_eqb k' k) eqn:E'; [|reflexivity]. apply id_eqb_eq in E'. subst k'. rewrite E. reflexivity.
Qed.

Lemma tbl_get_del k k' t : tbl_get k' (tbl_del k t) = if id_eqb k' k then None else tbl_get k' t.
Proof.
  induction t as [|[k2 e2] r IH]; cbn [tbl_del tbl_get]; [destruct (id_eqb k' k); reflexivity|].
  destruct (id_eqb k k2) eqn:E; cbn [tbl_get]; rewrite IH.
  - apply id_eqb_eq in E. subst k2. destruct (id_eqb k' k); reflexivity.
  - destruct (id_eqb k' k) eqn:E'; [|reflexivity]. apply id_eqb_eq in E'. subst k'. rewrite E. reflexivity.
Qed.

Lemma recv_get t f k :
  tbl_get k (fst (recv_fragment t f)) =
  if id_eqb k (f_id f) then fst (entry_step (tbl_get (f_id f) t) f) else tbl_get k t.
Proof.
  unfold recv_fragment. destruct (entry_step (tbl_get (f_id f) t) f) as [[e|] out]; [apply tbl_get_set|apply tbl_get_del].
Qed.

Lemma recv_get_same t f :
  tbl_get (f_id f) (fst (recv_fragment t f)) = fst (entry_step (tbl_get (f_id f) t) f).
Proof. rewrite recv_get, id_eqb_refl. reflexivity. Qed.

Lemma recv_get_other t f k :
  k <> f_id f -> tbl_get k (fst (recv_fragment t f)) = tbl_get k t.
Proof. intros Hne. rewrite recv_get, (proj2 (id_eqb_neq _ _) Hne). reflexivity. Qed.

Lemma recv_out t f :
  snd (recv_fragment t f) = snd (entry_step (tbl_get (f_id f) t) f).
Proof.
  unfold recv_fragment. destruct (entry_step (tbl_get (f_id f) t) f) as [[e|] out]; reflexivity.
Qed.

Lemma entry_step_deliver_id slot f d :
  snd (entry_step slot f) = ODeliver d -> d_id d = f_id f.
Proof.
  unfold entry_step.
  destruct (Ivl.eqb _ _); cbn [snd]; [|discriminate].
  destruct (if f_off f =? 0 then _ else _); [|discriminate].
  intros H. inversion H. reflexivity.
Qed.

Lemma sid_eqb_eq a b : sid_eqb a b = true <-> a = b.
Proof.
  destruct a as [ka oa], b as [kb ob]. unfold sid_eqb. cbn [fst snd]. split.
  - intros H. apply andb_prop in H. destruct H as [Hk Ho]. apply id_eqb_eq in Hk. subst kb.
    destruct oa as [[o1 t1]|], ob as [[o2 t2]|]; try discriminate; [|reflexivity].
    apply andb_prop in Ho. destruct Ho as [H1 H2]. apply N.eqb_eq in H1, H2. subst. reflexivity.
  - intros H. inversion H. subst. rewrite id_eqb_refl.
    destruct ob as [[o2 t2]|]; [|reflexivity]. rewrite !N.eqb_refl. reflexivity.
Qed.

Lemma in_seen_cons s x l : in_seen s (x :: l) = sid_eqb s x || in_seen s l.
Proof. reflexivity. Qed.

Lemma in_seen_cons_other s x l : fst s <> fst x -> in_seen s (x :: l) = in_seen s l.
Proof.
  intros Hne. rewrite in_seen_cons. destruct (sid_eqb s x) eqn:E; [|reflexivity].
  apply sid_eqb_eq in E. subst x. contradiction.
Qed.

Lemma in_seen_whole_frag k f l :
  in_seen (whole_sid k) (frag_sid f :: l) = in_seen (whole_sid k) l.
Proof.
  rewrite in_seen_cons. unfold sid_eqb, whole_sid, frag_sid. cbn [fst snd].
  rewrite andb_false_r. reflexivity.
Qed.

Lemma deliveries_cons st f r :
  deliveries st (f :: r) = snd (agent_recv st f) ++ deliveries (fst (agent_recv st f)) r.
Proof.
  unfold deliveries. cbn [run]. destruct (agent_recv st f) as [st1 ds]. cbn [fst snd].
  destruct (run st1 r) as [st2 dss]. reflexivity.
Qed.

Lemma run_cons_state st f r :
  fst (run st (f :: r)) = fst (run (fst (agent_recv st f)) r).
Proof.
  cbn [run]. destruct (agent_recv st f) as [st1 ds]. cbn [fst snd].
  destruct (run st1 r) as [st2 dss]. reflexivity.
Qed.

Lemma deliv_for_app k a b : deliv_for k (a ++ b) = deliv_for k a ++ deliv_for k b.
Proof. apply filter_app. Qed.

Lemma deliv_for_one k d : deliv_for k [d] = if id_eqb (d_id d) k then [d] else [].
Proof. reflexivity. Qed.

(** The new table is left as [fst (recv_fragment ..)]: its slots are read through [recv_get_same]
    and [recv_get_other]. *)
Inductive recv_spec (st : state) (f : frag) : state -> list delivered -> Prop :=
| RsSeen :
    in_seen (frag_sid f) (st_seen st) = true -> recv_spec st f st []
| RsQuiet :   (* absorbed, the error outcome, or reassembled when the whole bundle had been seen *)
    in_seen (frag_sid f) (st_seen st) = false ->
    (forall d, snd (entry_step (tbl_get (f_id f) (st_tbl st)) f) = ODeliver d ->
               in_seen (whole_sid (f_id f)) (st_seen st) = true) ->
    recv_spec st f (mkState (fst (recv_fragment (st_tbl st) f)) (frag_sid f :: st_seen st)) []
| RsDeliver d :
    in_seen (frag_sid f) (st_seen st) = false ->
    snd (entry_step (tbl_get (f_id f) (st_tbl st)) f) = ODeliver d -> d_id d = f_id f ->
    in_seen (whole_sid (f_id f)) (st_seen st) = false ->
    recv_spec st f (mkState (fst (recv_fragment (st_tbl st) f))
                            (whole_sid (f_id f) :: frag_sid f :: st_seen st)) [d].

Lemma agent_recv_spec st f : recv_spec st f (fst (agent_recv st f)) (snd (agent_recv st f)).
Proof.
  unfold agent_recv. destruct (in_seen (frag_sid f) (st_seen st)) eqn:S; [apply RsSeen; exact S|].
  rewrite (surjective_pairing (recv_fragment (st_tbl st) f)), recv_out.
  destruct (snd (entry_step (tbl_get (f_id f) (st_tbl st)) f)) as [|d|] eqn:Ho;
    try (apply RsQuiet; [exact S|rewrite Ho; discriminate]).
  pose proof (entry_step_deliver_id _ _ _ Ho) as Hid. rewrite Hid, in_seen_whole_frag.
  destruct (in_seen (whole_sid (f_id f)) (st_seen st)) eqn:W.
  - apply RsQuiet; [exact S|]. intros _ _. exact W.
  - apply RsDeliver; assumption.
Qed.

Definition agree (k : ident3) (a b : state) : Prop :=
  tbl_get k (st_tbl a) = tbl_get k (st_tbl b) /\
  forall o, in_seen (k, o) (st_seen a) = in_seen (k, o) (st_seen b).

Lemma agree_refl k a : agree k a a.
Proof. split; reflexivity. Qed.

Lemma agree_trans k a b c : agree k a b -> agree k b c -> agree k a c.
Proof.
  intros [H1 H2] [H3 H4]. split; [congruence|]. intros o. rewrite H2. apply H4.
Qed.

Lemma seen_cons_agree k x la lb :
  (forall o, in_seen (k, o) la = in_seen (k, o) lb) ->
  forall o, in_seen (k, o) (x :: la) = in_seen (k, o) (x :: lb).
Proof. intros H o. rewrite !in_seen_cons, H. reflexivity. Qed.

Lemma step_other k st f :
  f_id f <> k ->
  agree k (fst (agent_recv st f)) st /\
  deliv_for k (snd (agent_recv st f)) = [] /\
  (forall d, In d (snd (agent_recv st f)) -> d_id d = f_id f).
Proof.
  intros Hne.
  assert (Hs : forall x l, fst x = f_id f -> forall o, in_seen (k, o) (x :: l) = in_seen (k, o) l).
  { intros x l Hx o. apply in_seen_cons_other. cbn [fst]. congruence. }
  assert (Ht : tbl_get k (fst (recv_fragment (st_tbl st) f)) = tbl_get k (st_tbl st)).
  { apply recv_get_other. congruence. }
  destruct (agent_recv_spec st f) as [S|S Hq|d S Ho Hid W].
  - split; [apply agree_refl|]. split; [reflexivity|intros d []].
  - split; [|split; [reflexivity|intros d []]]. split; [exact Ht|]. apply Hs. reflexivity.
  - split; [|split].
    + split; [exact Ht|]. intros o. cbn [st_seen]. rewrite !Hs; reflexivity.
    + rewrite deliv_for_one, Hid, (proj2 (id_eqb_neq _ _) Hne). reflexivity.
    + intros d' [<-|[]]. exact Hid.
Qed.

Lemma step_same k a b f :
  agree k a b -> f_id f = k ->
  agree k (fst (agent_recv a f)) (fst (agent_recv b f)) /\
  snd (agent_recv a f) = snd (agent_recv b f).
Proof.
  intros [Ht Hs] <-.
  assert (Hg : tbl_get (f_id f) (fst (recv_fragment (st_tbl a) f)) = tbl_get (f_id f) (fst (recv_fragment (st_tbl b) f)))
    by (rewrite !recv_get_same, Ht; reflexivity).
  pose proof (Hs (Some (f_off f, f_total f))) as S. pose proof (Hs None) as W.
  fold (frag_sid f) in S. fold (whole_sid (f_id f)) in W.
  assert (Hs1 := seen_cons_agree _ (frag_sid f) _ _ Hs).
  (* both states take the same case: the three tests read the same slot and the same seen identities *)
  destruct (agent_recv_spec a f) as [Sa|Sa Qa|d Sa Oa _ Wa]; destruct (agent_recv_spec b f) as [Sb|Sb Qb|d' Sb Ob _ Wb];
    try congruence; rewrite <- ?Ht in *.
  - split; [split; assumption|reflexivity].
  - split; [split; assumption|reflexivity].
  - rewrite (Qa _ Ob) in W. congruence.
  - rewrite (Qb _ Oa) in W. congruence.
  - split; [split; [exact Hg|apply seen_cons_agree, Hs1]|congruence].
Qed.

Definition is_id (k : ident3) (f : frag) : bool := id_eqb (f_id f) k.

Lemma no_mixing_gen k h : forall a b,
  agree k a b ->
  deliv_for k (deliveries a h) = deliv_for k (deliveries b (filter (is_id k) h)) /\
  agree k (fst (run a h)) (fst (run b (filter (is_id k) h))).
Proof.
  induction h as [|f r IH]; intros a b Hab.
  - split; [reflexivity|exact Hab].
  - cbn [filter]. destruct (is_id k f) eqn:E; unfold is_id in E.
    + apply id_eqb_eq in E. destruct (step_same k a b f Hab E) as [Hag Hds].
      rewrite !deliveries_cons, !run_cons_state, !deliv_for_app, Hds.
      destruct (IH _ _ Hag) as [H1 H2]. rewrite H1. split; [reflexivity|exact H2].
    + apply id_eqb_neq in E. destruct (step_other k a f E) as [Hag [Hds _]].
      rewrite deliveries_cons, run_cons_state, deliv_for_app, Hds. cbn [app].
      apply IH. eapply agree_trans; [exact Hag|exact Hab].
Qed.

Theorem no_mixing_trace k h :
  deliv_for k (deliveries init h) = deliv_for k (deliveries init (filter (is_id k) h)) /\
  tbl_get k (st_tbl (fst (run init h))) = tbl_get k (st_tbl (fst (run init (filter (is_id k) h)))).
Proof.
  destruct (no_mixing_gen k h init init (agree_refl k init)) as [H1 [H2 _]]. split; assumption.
Qed.

Lemma own_filter k h f : In f (filter (is_id k) h) <-> In f h /\ f_id f = k.
Proof. unfold is_id. rewrite filter_In, id_eqb_eq. reflexivity. Qed.

(** the slot step works on the entry in the slot or, when there is none, on a fresh one *)
Lemma entry_step_from (I : entry -> Prop) slot f :
  (forall e, slot = Some e -> I e) -> (slot = None -> I (fresh_entry (f_total f))) ->
  exists e0, I e0 /\ entry_step slot f = entry_step (Some e0) f.
Proof. destruct slot as [e|]; intros Hs Hn; [exists e|exists (fresh_entry (f_total f))]; auto. Qed.

Lemma entry_step_incomplete slot f T x :
  (forall e, slot = Some e -> e_total e = T /\ mem x (e_valid e) = false) ->
  f_total f = T -> ~ carries f x -> x < T ->
  exists e', entry_step slot f = (Some e', ONone) /\ e_total e' = T /\ mem x (e_valid e') = false.
Proof.
  intros Hslot Ht Hc Hx.
  destruct (entry_step_from _ slot f Hslot) as (e0 & [H0t H0m] & ->); [split; [exact Ht|reflexivity]|].
  unfold entry_step.
  assert (Hm : mem x (Ivl.add (f_off f) (f_end f) (e_valid e0)) = false).
  { rewrite mem_add_any, H0m. unfold carries in Hc. cbn [orb]. lia. }
  rewrite H0t. rewrite (incomplete_neq _ T x Hx Hm).
  eexists. split; [reflexivity|]. cbn [e_total e_valid]. split; [reflexivity|exact Hm].
Qed.

Lemma no_early_own k T x h : forall st,
  x < T ->
  (forall e, tbl_get k (st_tbl st) = Some e -> e_total e = T /\ mem x (e_valid e) = false) ->
  (forall f, In f h -> f_id f = k /\ f_total f = T /\ ~ carries f x) ->
  deliv_for k (deliveries st h) = [].
Proof.
  induction h as [|f r IH]; intros st Hx Hinv Hh; [reflexivity|].
  destruct (Hh f (or_introl eq_refl)) as (Hid & Ht & Hc).
  assert (Hr : forall g, In g r -> f_id g = k /\ f_total g = T /\ ~ carries g x) by (intros g Hg; apply Hh; right; exact Hg).
  destruct (entry_step_incomplete (tbl_get k (st_tbl st)) f T x Hinv Ht Hc Hx) as (e' & Hes & He').
  pose proof (recv_get_same (st_tbl st) f) as Hg.
  rewrite deliveries_cons, deliv_for_app.
  destruct (agent_recv_spec st f) as [S|S Hq|d S Ho _ W]; rewrite Hid in *.
  - apply IH; assumption.
  - apply IH; [exact Hx| |exact Hr]. cbn [st_tbl]. rewrite Hg, Hes. intros e E. inversion E. subst e. exact He'.
  - rewrite Hes in Ho. discriminate.
Qed.

Theorem no_early k T x h :
  x < T ->
  (forall f, In f h -> f_id f = k -> f_total f = T /\ ~ carries f x) ->
  deliv_for k (deliveries init h) = [].
Proof.
  intros Hx Hh. rewrite (proj1 (no_mixing_trace k h)). apply (no_early_own k T x _ init Hx).
  - intros e He. discriminate.
  - intros f Hf. apply own_filter in Hf. destruct Hf as [Hf E]. split; [exact E|]. exact (Hh f Hf E).
Qed.

Lemma nth_firstn_lt {A} (d : A) : forall n i (l : list A), (i < n)%nat -> nth i (firstn n l) d = nth i l d.
Proof.
  induction n as [|n IH]; intros i l Hi; [lia|].
  destruct l as [|a l]; [destruct i; reflexivity|]. destruct i as [|i]; [reflexivity|].
  cbn [firstn nth]. apply IH. lia.
Qed.

Lemma nth_skipn_add {A} (d : A) : forall n i (l : list A), nth i (skipn n l) d = nth (n + i) l d.
Proof.
  induction n as [|n IH]; intros i l; [reflexivity|].
  destruct l as [|a l]; [destruct i; reflexivity|]. cbn [skipn Nat.add nth]. apply IH.
Qed.

Lemma splice_length buf lo hi data :
  hi = lo + blen data -> hi <= blen buf -> length (splice buf lo hi data) = length buf.
Proof.
  unfold splice, blen. intros H1 H2. rewrite !app_length, firstn_length, skipn_length. lia.
Qed.

Lemma splice_nth_in buf lo hi data i :
  hi = lo + blen data -> hi <= blen buf -> (N.to_nat lo <= i < N.to_nat hi)%nat ->
  nth i (splice buf lo hi data) 0 = nth (i - N.to_nat lo) data 0.
Proof.
  unfold splice, blen. intros H1 H2 Hi.
  assert (L : length (firstn (N.to_nat lo) buf) = N.to_nat lo) by (rewrite firstn_length; lia).
  rewrite app_nth2 by lia. rewrite L. apply app_nth1. lia.
Qed.

Lemma splice_nth_out buf lo hi data i :
  hi = lo + blen data -> hi <= blen buf -> (i < N.to_nat lo \/ N.to_nat hi <= i)%nat ->
  nth i (splice buf lo hi data) 0 = nth i buf 0.
Proof.
  unfold splice, blen. intros H1 H2 Hi.
  assert (L : length (firstn (N.to_nat lo) buf) = N.to_nat lo) by (rewrite firstn_length; lia).
  destruct Hi as [Hi|Hi].
  - rewrite app_nth1 by lia. apply nth_firstn_lt. exact Hi.
  - rewrite app_nth2 by lia. rewrite app_nth2 by lia. rewrite nth_skipn_add, L. f_equal. lia.
Qed.

Definition entry_ok (p : bytes) (e : entry) : Prop :=
  e_total e = blen p /\ length (e_buf e) = length p /\ norm (e_valid e) /\
  forall x, mem x (e_valid e) = true ->
            x < blen p /\ nth (N.to_nat x) (e_buf e) 0 = nth (N.to_nat x) p 0.

Lemma fresh_ok p : entry_ok p (fresh_entry (blen p)).
Proof.
  unfold entry_ok, fresh_entry, zeros, blen. cbn [e_total e_buf e_valid].
  split; [reflexivity|]. split; [rewrite repeat_length; lia|]. split; [exact I|].
  intros x Hx. discriminate.
Qed.

Lemma entry_step_ok k p e0 f first :
  entry_ok p e0 -> frag_of k p f ->
  entry_ok p (mkEntry (e_total e0) (Ivl.add (f_off f) (f_end f) (e_valid e0))
                      (splice (e_buf e0) (f_off f) (f_end f) (f_data f)) first).
Proof.
  intros (Ht & Hl & Hn & Hb) Hf. pose proof Hf as (Hid & Hft & Hend & Hd).
  assert (E1 : f_end f = f_off f + blen (f_data f)) by reflexivity.
  assert (E2 : f_end f <= blen (e_buf e0)) by (unfold blen in *; lia).
  unfold entry_ok. cbn [e_total e_buf e_valid].
  split; [exact Ht|]. split; [rewrite splice_length by assumption; exact Hl|].
  split; [apply add_norm; exact Hn|].
  intros x Hx. rewrite mem_add_any in Hx.
  destruct ((f_off f <=? x) && (x <? f_end f)) eqn:C.
  - split; [lia|]. rewrite splice_nth_in by (try assumption; lia).
    rewrite Hd, nth_firstn_lt, nth_skipn_add by (unfold f_end, blen in *; lia). f_equal. lia.
  - rewrite orb_false_r in Hx. destruct (Hb x Hx) as [Hlt Hnth]. split; [exact Hlt|].
    rewrite splice_nth_out by (try assumption; lia). exact Hnth.
Qed.

Lemma complete_buf p e :
  entry_ok p e -> Ivl.eqb (e_valid e) (Ivl.full (e_total e)) = true -> e_buf e = p.
Proof.
  intros (Ht & Hl & Hn & Hb) Hc. rewrite Ht in Hc.
  pose proof (proj1 (complete_iff _ _ Hn) Hc) as Hall.
  apply (nth_ext _ _ 0 0 Hl). intros n Hlt.
  assert (Hm : mem (N.of_nat n) (e_valid e) = true) by (rewrite Hall; unfold blen; lia).
  destruct (Hb _ Hm) as [_ Hnth]. rewrite Nat2N.id in Hnth. exact Hnth.
Qed.

Section Safety.
Variable k : ident3.
Variable p : bytes.
Variable hist : list frag.      (* the whole arrival history *)

Definition first_ok (e : entry) : Prop :=
  forall ff, e_first e = Some ff -> In ff hist /\ f_id ff = k /\ f_off ff = 0.

Definition slot_ok (slot : option entry) : Prop :=
  forall e, slot = Some e -> entry_ok p e /\ first_ok e.

Definition good_delivery (d : delivered) : Prop :=
  exists f0, In f0 hist /\ f_id f0 = k /\ f_off f0 = 0 /\ d = mkDelivered k p (f_blocks f0).

Lemma entry_step_safe slot f :
  slot_ok slot -> frag_of k p f -> In f hist ->
  slot_ok (fst (entry_step slot f)) /\
  forall d, snd (entry_step slot f) = ODeliver d -> good_delivery d.
Proof.
  intros Hs Hf Hin. destruct (entry_step_from _ slot f Hs) as (e0 & [Hok Hfirst] & ->).
  { destruct Hf as (_ & -> & _). split; [apply fresh_ok|]. intros ff X. discriminate. }
  unfold entry_step.
  set (first := if f_off f =? 0 then Some f else e_first e0).
  assert (Hf1 : forall ff, first = Some ff -> In ff hist /\ f_id ff = k /\ f_off ff = 0).
  { subst first. destruct (f_off f =? 0) eqn:E0.
    - intros ff X. inversion X. subst ff. destruct Hf as (Hid & _). repeat split; [exact Hin|exact Hid|lia].
    - exact Hfirst. }
  pose proof (entry_step_ok k p e0 f first Hok Hf) as Hok'.
  destruct (Ivl.eqb _ _) eqn:C; cbn [fst snd].
  - split; [intros e X; discriminate|]. intros d Hd.
    destruct first as [ff|]; [|discriminate]. inversion Hd. subst d.
    destruct (Hf1 ff eq_refl) as (Hi1 & Hi2 & Hi3). exists ff. repeat split; try assumption.
    destruct Hf as (Hid & _). rewrite Hid. f_equal.
    apply (complete_buf p _ Hok'). cbn [e_valid e_total]. exact C.
  - split; [|discriminate]. intros e X. inversion X. subst e. split; [exact Hok'|exact Hf1].
Qed.

(** One induction for the three facts: the slot stays well-formed, whatever is delivered is right, and
    the seen set lets at most one delivery through. *)
Lemma safety_own h : forall st,
  incl h hist -> (forall f, In f h -> frag_of k p f) ->
  slot_ok (tbl_get k (st_tbl st)) ->
  slot_ok (tbl_get k (st_tbl (fst (run st h)))) /\
  Forall good_delivery (deliv_for k (deliveries st h)) /\
  (length (deliv_for k (deliveries st h)) <= if in_seen (whole_sid k) (st_seen st) then 0 else 1)%nat.
Proof.
  induction h as [|f r IH]; intros st Hincl Hh Hslot.
  { split; [exact Hslot|]. split; [constructor|]. cbn [deliveries run snd concat deliv_for filter length]. destruct (in_seen _ _); lia. }
  apply incl_cons_inv in Hincl. destruct Hincl as [Hin Hincl].
  pose proof (Hh f (or_introl eq_refl)) as Hf. pose proof Hf as [Hid _].
  assert (Hr : forall g, In g r -> frag_of k p g) by (intros g Hg; apply Hh; right; exact Hg).
  destruct (entry_step_safe _ f Hslot Hf Hin) as [Hslot' Hgood].
  pose proof (recv_get_same (st_tbl st) f) as Hg.
  rewrite run_cons_state, deliveries_cons, deliv_for_app.
  destruct (agent_recv_spec st f) as [S|S Hq|d S Ho Hd W]; rewrite Hid in *.
  - apply IH; assumption.
  - rewrite <- (in_seen_whole_frag k f). apply IH; [exact Hincl|exact Hr|]. cbn [st_tbl]. rewrite Hg. exact Hslot'.
  - destruct (IH (mkState (fst (recv_fragment (st_tbl st) f)) (whole_sid k :: frag_sid f :: st_seen st)) Hincl Hr)
      as (IH1 & IH2 & IH3); [cbn [st_tbl]; rewrite Hg; exact Hslot'|].
    cbn [st_seen] in IH3. rewrite in_seen_cons, (proj2 (sid_eqb_eq _ _) eq_refl) in IH3.
    rewrite deliv_for_one, Hd, id_eqb_refl. cbn [app length].
    split; [exact IH1|]. split; [constructor; [exact (Hgood d Ho)|exact IH2]|]. rewrite W. cbn [orb] in IH3. lia.
Qed.

End Safety.

Section Liveness.
Variable k : ident3.
Variable p : bytes.
Variable fs : list frag.
Variable f0 : frag.
Hypothesis Hfs : forall f, In f fs -> frag_of k p f.
Hypothesis Hcov : covers fs p.
Hypothesis Hf0 : In f0 fs /\ f_off f0 = 0.
Hypothesis Hdist : forall f g, In f fs -> In g fs -> f_off f = f_off g -> f = g.

Definition ksid (f : frag) : sid := (k, Some (f_off f, f_total f)).

Lemma ksid_frag f : In f fs -> frag_sid f = ksid f.
Proof. intros Hf. destruct (Hfs f Hf) as (Hid & _). unfold frag_sid, ksid. rewrite Hid. reflexivity. Qed.

Lemma seen1_iff f g seen :
  In f fs -> In g fs ->
  (in_seen (ksid g) (frag_sid f :: seen) = true <-> g = f \/ in_seen (ksid g) seen = true).
Proof.
  intros Hf Hg. rewrite in_seen_cons, orb_true_iff. split; (intros [X|X]; [left|right; exact X]).
  - apply sid_eqb_eq in X. rewrite (ksid_frag f Hf) in X. unfold ksid in X. inversion X.
    apply Hdist; assumption.
  - subst g. rewrite (ksid_frag f Hf). apply sid_eqb_eq. reflexivity.
Qed.

Definition live_entry (seen : list sid) (e : entry) : Prop :=
  e_total e = blen p /\ norm (e_valid e) /\
  (forall x, mem x (e_valid e) = true <->
             exists f, In f fs /\ in_seen (ksid f) seen = true /\ carries f x) /\
  (in_seen (ksid f0) seen = true -> e_first e <> None).

Definition live_inv (st : state) : Prop :=
  match tbl_get k (st_tbl st) with
  | None => forall f, In f fs -> in_seen (ksid f) (st_seen st) = false
  | Some e => live_entry (st_seen st) e /\ Ivl.eqb (e_valid e) (Ivl.full (blen p)) = false
  end.

Lemma live_fresh seen :
  (forall f, In f fs -> in_seen (ksid f) seen = false) -> live_entry seen (fresh_entry (blen p)).
Proof.
  intros Hn. unfold live_entry, fresh_entry. cbn [e_total e_valid e_first].
  split; [reflexivity|]. split; [exact I|]. split.
  - intros x. split; [discriminate|]. intros (f & A & B & _). rewrite (Hn f A) in B. discriminate.
  - intros X. rewrite (Hn f0 (proj1 Hf0)) in X. discriminate.
Qed.

Lemma entry_step_live seen e0 f buf :
  live_entry seen e0 -> In f fs ->
  live_entry (frag_sid f :: seen)
    (mkEntry (e_total e0) (Ivl.add (f_off f) (f_end f) (e_valid e0)) buf
             (if f_off f =? 0 then Some f else e_first e0)).
Proof.
  intros (Htot & Hnorm & Hmem & Hfst) Hf. unfold live_entry. cbn [e_total e_valid e_first].
  split; [exact Htot|]. split; [apply add_norm; exact Hnorm|]. split.
  - intros x. rewrite mem_add_any, orb_true_iff. split.
    + intros [Hm|Hc].
      * apply Hmem in Hm. destruct Hm as (g & A & B & C). exists g. split; [exact A|]. split; [|exact C].
        apply (seen1_iff f g seen Hf A). right. exact B.
      * exists f. split; [exact Hf|]. split; [apply (seen1_iff f f seen Hf Hf); left; reflexivity|].
        unfold carries. lia.
    + intros (g & A & B & C). apply (seen1_iff f g seen Hf A) in B. destruct B as [->|B].
      * right. unfold carries in C. lia.
      * left. apply Hmem. exists g. auto.
  - intros X. destruct (f_off f =? 0) eqn:E0; [discriminate|].
    apply (seen1_iff f f0 seen Hf (proj1 Hf0)) in X. destruct X as [X|X].
    + subst f. destruct Hf0 as [_ Z]. lia.
    + apply Hfst. exact X.
Qed.

Lemma complete_first seen e f :
  live_entry seen e -> In f fs -> in_seen (ksid f) seen = true ->
  Ivl.eqb (e_valid e) (Ivl.full (blen p)) = true -> e_first e <> None.
Proof.
  intros (Htot & Hnorm & Hmem & Hfst) Hf Hseen Hc. apply Hfst.
  assert (Hz : exists g, In g fs /\ in_seen (ksid g) seen = true /\ f_off g = 0).
  { destruct (N.eq_dec (blen p) 0) as [Z|Z].
    - exists f. destruct (Hfs f Hf) as (_ & _ & He & _). unfold f_end in He.
      repeat split; try assumption. lia.
    - pose proof (proj1 (complete_iff _ _ Hnorm) Hc 0) as Hm.
      assert (Hm' : mem 0 (e_valid e) = true) by (rewrite Hm; lia).
      apply Hmem in Hm'. destruct Hm' as (g & A & B & C). exists g. unfold carries in C.
      repeat split; try assumption. lia. }
  destruct Hz as (g & A & B & C).
  assert (g = f0) by (apply Hdist; [exact A|exact (proj1 Hf0)|destruct Hf0; lia]).
  subst g. exact B.
Qed.

Lemma all_seen_complete seen e :
  live_entry seen e -> (forall f, In f fs -> in_seen (ksid f) seen = true) ->
  Ivl.eqb (e_valid e) (Ivl.full (blen p)) = true.
Proof.
  intros (Htot & Hnorm & Hmem & Hfst) Hall. apply complete_iff; [exact Hnorm|]. intros x.
  destruct (x <? blen p) eqn:C.
  - apply Hmem. destruct (Hcov x) as (f & A & B); [lia|]. exists f. auto.
  - destruct (mem x (e_valid e)) eqn:M; [|reflexivity].
    apply Hmem in M. destruct M as (f & A & _ & B). destruct (Hfs f A) as (_ & _ & He & _).
    unfold carries in B. lia.
Qed.

(** a fragment of the cover completes the slot (and then the first fragment is there) or leaves it live *)
Lemma live_step st f :
  live_inv st -> In f fs ->
  (exists d, snd (entry_step (tbl_get k (st_tbl st)) f) = ODeliver d) \/
  live_inv (mkState (fst (recv_fragment (st_tbl st) f)) (frag_sid f :: st_seen st)).
Proof.
  intros Hinv Hf. destruct (Hfs f Hf) as (Hid & Htot & _).
  pose proof (recv_get_same (st_tbl st) f) as Hg. rewrite Hid in Hg.
  unfold live_inv in *. cbn [st_tbl st_seen]. rewrite Hg.
  destruct (entry_step_from (live_entry (st_seen st)) (tbl_get k (st_tbl st)) f) as (e0 & Hle0 & ->).
  { intros e E. rewrite E in Hinv. apply Hinv. }
  { intros E. rewrite E in Hinv. rewrite Htot. apply live_fresh, Hinv. }
  unfold entry_step.
  pose proof (entry_step_live (st_seen st) e0 f (splice (e_buf e0) (f_off f) (f_end f) (f_data f)) Hle0 Hf) as Hle1.
  assert (Ht0 : e_total e0 = blen p) by apply Hle0. rewrite Ht0 in *.
  destruct (Ivl.eqb (Ivl.add (f_off f) (f_end f) (e_valid e0)) (Ivl.full (blen p))) eqn:C; cbn [fst snd].
  - left. assert (Hseenf : in_seen (ksid f) (frag_sid f :: st_seen st) = true) by (apply (seen1_iff f f _ Hf Hf); auto).
    pose proof (complete_first _ _ f Hle1 Hf Hseenf C) as Hfirst. cbn [e_first] in Hfirst.
    destruct (if f_off f =? 0 then Some f else e_first e0); [eauto|contradiction].
  - right. split; [exact Hle1|exact C].
Qed.

Lemma live_own h : forall st,
  live_inv st ->
  in_seen (whole_sid k) (st_seen st) = false ->
  (forall f, In f h -> In f fs) ->
  (forall f, In f fs -> in_seen (ksid f) (st_seen st) = true \/ In f h) ->
  deliv_for k (deliveries st h) <> [].
Proof.
  induction h as [|f r IH]; intros st Hinv Hw Hh Hall.
  { exfalso.
    assert (Hall' : forall f, In f fs -> in_seen (ksid f) (st_seen st) = true).
    { intros f Hf. destruct (Hall f Hf) as [X|[]]. exact X. }
    unfold live_inv in Hinv. destruct (tbl_get k (st_tbl st)) as [e|].
    - destruct Hinv as [Hle Hnc]. rewrite (all_seen_complete _ e Hle Hall') in Hnc. discriminate.
    - specialize (Hall' f0 (proj1 Hf0)). rewrite (Hinv f0 (proj1 Hf0)) in Hall'. discriminate. }
  pose proof (Hh f (or_introl eq_refl)) as Hf. destruct (Hfs f Hf) as [Hid _].
  assert (Hr : forall g, In g r -> In g fs) by (intros g Hg; apply Hh; right; exact Hg).
  rewrite deliveries_cons, deliv_for_app.
  destruct (agent_recv_spec st f) as [S|S Hq|d S Ho Hd W]; try rewrite Hid in *.
  - apply IH; try assumption.
    intros g Hg. destruct (Hall g Hg) as [X|[<-|X]]; auto. left. rewrite <- (ksid_frag f Hf). exact S.
  - destruct (live_step st f Hinv Hf) as [[d Hd]|Hinv'].
    + rewrite (Hq d Hd) in Hw. discriminate.
    + apply IH; cbn [st_seen]; [exact Hinv'|rewrite in_seen_whole_frag; exact Hw|exact Hr|].
      intros g Hg. destruct (Hall g Hg) as [X|[<-|X]]; [left|left|right; exact X]; apply (seen1_iff f _ _ Hf); auto.
  - rewrite deliv_for_one, Hd, id_eqb_refl. discriminate.
Qed.

End Liveness.

Lemma safety_init k p h :
  (forall f, In f h -> f_id f = k -> frag_of k p f) ->
  slot_ok k p h (tbl_get k (st_tbl (fst (run init h)))) /\
  Forall (good_delivery k p h) (deliv_for k (deliveries init h)) /\
  (length (deliv_for k (deliveries init h)) <= 1)%nat.
Proof.
  intros Hh. destruct (no_mixing_trace k h) as [-> ->].
  apply (safety_own k p h _ init).
  - intros f Hf. apply own_filter in Hf. tauto.
  - intros f Hf. apply own_filter in Hf. destruct Hf. auto.
  - intros e X. discriminate.
Qed.

Theorem safety k p h :
  (forall f, In f h -> f_id f = k -> frag_of k p f) ->
  deliv_for k (deliveries init h) = [] \/
  exists f0, In f0 h /\ f_id f0 = k /\ f_off f0 = 0 /\
             deliv_for k (deliveries init h) = [mkDelivered k p (f_blocks f0)].
Proof.
  intros Hh. destruct (safety_init k p h Hh) as (_ & Hg & Hl).
  destruct (deliv_for k (deliveries init h)) as [|d [|d' l]]; [left; reflexivity| |cbn [length] in Hl; lia].
  right. inversion Hg as [|? ? (g0 & A & B & C & ->) _]. exists g0. auto.
Qed.

Theorem complete_once k p fs f0 h :
  (forall f, In f fs -> frag_of k p f) ->
  covers fs p ->
  In f0 fs -> f_off f0 = 0 ->
  (forall f g, In f fs -> In g fs -> f_off f = f_off g -> f = g) ->
  (forall f, In f h -> f_id f = k -> In f fs) ->
  (forall f, In f fs -> In f h) ->
  deliv_for k (deliveries init h) = [mkDelivered k p (f_blocks f0)].
Proof.
  intros Hfs Hcov Hin0 Hoff0 Hdist Hsub Hsup.
  assert (Hcons : forall f, In f h -> f_id f = k -> frag_of k p f).
  { intros f A B. apply Hfs. apply Hsub; assumption. }
  assert (Hlive : deliv_for k (deliveries init h) <> []).
  { rewrite (proj1 (no_mixing_trace k h)). apply (live_own k p fs f0 Hfs Hcov (conj Hin0 Hoff0) Hdist _ init).
    - unfold live_inv. cbn. intros f _. reflexivity.
    - reflexivity.
    - intros f Hf. apply own_filter in Hf. destruct Hf. auto.
    - intros f Hf. right. apply own_filter. split; [auto|apply (Hfs f Hf)]. }
  destruct (safety k p h Hcons) as [X|(g0 & A & B & C & D)]; [contradiction|].
  assert (g0 = f0).
  { apply Hdist; [apply Hsub; assumption|exact Hin0|lia]. }
  subst g0. exact D.
Qed.

Theorem buffer_correct k p h e :
  (forall f, In f h -> f_id f = k -> frag_of k p f) ->
  tbl_get k (st_tbl (fst (run init h))) = Some e ->
  e_total e = blen p /\ length (e_buf e) = length p /\
  forall x, mem x (e_valid e) = true ->
            x < blen p /\ nth (N.to_nat x) (e_buf e) 0 = nth (N.to_nat x) p 0.
Proof.
  intros Hh He. destruct (safety_init k p h Hh) as (X & _).
  destruct (X e He) as [(A & B & _ & D) _]. auto.
Qed.

Theorem damaged_noop h : forall st,
  deliveries_arr st h = deliveries st (intact_only h) /\
  fst (run_arr st h) = fst (run st (intact_only h)).
Proof.
  induction h as [|a r IH]; intros st; [split; reflexivity|].
  destruct a as [f|f].
  - cbn [intact_only]. rewrite deliveries_cons, run_cons_state.
    unfold deliveries_arr. cbn [run_arr agent_recv_arr].
    destruct (agent_recv st f) as [st1 ds]. cbn [fst snd].
    destruct (IH st1) as [H1 H2]. unfold deliveries_arr in H1.
    destruct (run_arr st1 r) as [st2 dss]. cbn [fst snd concat] in *.
    rewrite H1. split; [reflexivity|exact H2].
  - cbn [intact_only]. unfold deliveries_arr. cbn [run_arr agent_recv_arr].
    destruct (IH st) as [H1 H2]. unfold deliveries_arr in H1.
    destruct (run_arr st r) as [st2 dss]. cbn [fst snd concat app] in *.
    split; assumption.
Qed.

(** ** The witness against unrestricted overlapping fragment sets

    Payload of 10 octets; fragments A = [0,3), B = [0,5), C = [5,10).  A and B have the
    same (offset, total), hence the same identity in [recv_bundle]. *)
Definition w_k : ident3 := (1, 1000, 0).
Definition w_p : bytes := [1; 2; 3; 4; 5; 6; 7; 8; 9; 10].
Definition w_blocks : list blk := [(192, 2, [7])].
Definition w_A : frag := mkFrag w_k 0 10 [1; 2; 3] w_blocks.
Definition w_B : frag := mkFrag w_k 0 10 [1; 2; 3; 4; 5] w_blocks.
Definition w_C : frag := mkFrag w_k 5 10 [6; 7; 8; 9; 10] [].
Definition w_fs : list frag := [w_A; w_B; w_C].

Lemma w_frag_of : forall f, In f w_fs -> frag_of w_k w_p f.
Proof.
  intros f [<-|[<-|[<-|[]]]]; unfold frag_of; (split; [reflexivity|]); (split; [reflexivity|]);
    (split; [vm_compute; discriminate|reflexivity]).
Qed.

Lemma w_covers : covers w_fs w_p.
Proof.
  intros x Hx. change (blen w_p) with 10 in Hx. destruct (x <? 5) eqn:C.
  - exists w_B. split; [right; left; reflexivity|]. unfold carries. change (f_end w_B) with 5. cbn [f_off w_B]. lia.
  - exists w_C. split; [right; right; left; reflexivity|]. unfold carries. change (f_end w_C) with 10. cbn [f_off w_C]. lia.
Qed.

Theorem complete_once_refuted :
  exists k p fs f0 h h',
    (forall f, In f fs -> frag_of k p f) /\ covers fs p /\ In f0 fs /\ f_off f0 = 0 /\
    (forall f, In f h -> In f fs) /\ (forall f, In f fs -> In f h) /\
    (forall f, In f h' -> In f fs) /\ (forall f, In f fs -> In f h') /\
    deliv_for k (deliveries init h) = [] /\
    deliv_for k (deliveries init h') = [mkDelivered k p (f_blocks f0)].
Proof.
  exists w_k, w_p, w_fs, w_B, [w_A; w_B; w_C], [w_B; w_C; w_A].
  split; [exact w_frag_of|]. split; [exact w_covers|].
  split; [right; left; reflexivity|]. split; [reflexivity|].
  split; [intros f X; exact X|]. split; [intros f X; exact X|].
  split; [intros f [<-|[<-|[<-|[]]]]; cbn; auto|].
  split; [intros f [<-|[<-|[<-|[]]]]; cbn; auto|].
  split; vm_compute; reflexivity.
Qed.

Definition x_k : ident3 := (2, 50, 1).
Definition x_p : bytes := [10; 20; 30; 40; 50; 60; 70; 80; 90; 100].
Definition x_F0 : frag := mkFrag x_k 0 10 [10; 20; 30; 40] [(7, 2, [1; 2]); (192, 3, [])].
Definition x_F1 : frag := mkFrag x_k 2 10 [30; 40; 50; 60; 70] [].           (* overlaps F0 *)
Definition x_F2 : frag := mkFrag x_k 7 10 [80; 90; 100] [(7, 2, [9])].
Definition x_G : frag := mkFrag (2, 50, 2) 0 4 [9; 9] [].                    (* other sequence number *)
Definition x_H : frag := mkFrag (3, 50, 1) 5 10 [1; 1; 1; 1; 1] [].          (* other source *)
Definition x_fs : list frag := [x_F0; x_F1; x_F2].
(** last fragment first, duplicates, two other bundles interleaved, first fragment late *)
Definition x_h : list frag := [x_F2; x_G; x_F1; x_F2; x_H; x_F0; x_F1; x_F0].

Example complete_once_nonvacuous :
  (forall f, In f x_fs -> frag_of x_k x_p f) /\
  covers x_fs x_p /\
  In x_F0 x_fs /\ f_off x_F0 = 0 /\
  (forall f g, In f x_fs -> In g x_fs -> f_off f = f_off g -> f = g) /\
  (forall f, In f x_h -> f_id f = x_k -> In f x_fs) /\
  (forall f, In f x_fs -> In f x_h) /\
  deliv_for x_k (deliveries init x_h) = [mkDelivered x_k x_p (f_blocks x_F0)] /\
  length (deliveries init x_h) = 1%nat.
Proof.
  split.
  { intros f [<-|[<-|[<-|[]]]]; unfold frag_of; (split; [reflexivity|]); (split; [reflexivity|]);
      (split; [vm_compute; discriminate|reflexivity]). }
  split.
  { intros x Hx. change (blen x_p) with 10 in Hx. unfold carries.
    destruct (x <? 4) eqn:C4; [exists x_F0|destruct (x <? 7) eqn:C7; [exists x_F1|exists x_F2]].
    - split; [left; reflexivity|]. change (f_end x_F0) with 4. cbn [f_off x_F0]. lia.
    - split; [right; left; reflexivity|]. change (f_end x_F1) with 7. cbn [f_off x_F1]. lia.
    - split; [right; right; left; reflexivity|]. change (f_end x_F2) with 10. cbn [f_off x_F2]. lia. }
  split; [left; reflexivity|]. split; [reflexivity|].
  split.
  { intros f g [<-|[<-|[<-|[]]]] [<-|[<-|[<-|[]]]] E; try reflexivity; discriminate E. }
  split.
  { intros f [<-|[<-|[<-|[<-|[<-|[<-|[<-|[<-|[]]]]]]]]] E; try discriminate E; cbn; auto. }
  split.
  { intros f [<-|[<-|[<-|[]]]]; cbn; auto 10. }
  split; vm_compute; reflexivity.
Qed.

(** Octet 5 is carried by neither F0 = [0,4) nor F2 = [7,10). *)
Example no_early_nonvacuous :
  let h := [x_F2; x_G; x_F0; x_F2; x_H] in
  5 < 10 /\
  (forall f, In f h -> f_id f = x_k -> f_total f = 10 /\ ~ carries f 5) /\
  deliveries init h = [] /\
  exists e, tbl_get x_k (st_tbl (fst (run init h))) = Some e /\ e_valid e = [(0, 4); (7, 10)] /\
            e_buf e = [10; 20; 30; 40; 0; 0; 0; 80; 90; 100].
Proof.
  cbn zeta. split; [lia|]. split.
  { intros f [<-|[<-|[<-|[<-|[<-|[]]]]]] E; try discriminate E; (split; [reflexivity|]);
      unfold carries; vm_compute; intros [A B]; try (apply A; reflexivity); try discriminate B. }
  split; [vm_compute; reflexivity|].
  eexists. split; [vm_compute; reflexivity|]. split; reflexivity.
Qed.

(** The modelled slice assignment grows the buffer when a fragment with a larger total
    reaches past the end of the buffer allocated from the first fragment's total
    (inconsistent totals; outside every theorem's hypotheses, inside the model). *)
Example splice_grows :
  splice (zeros 6) 8 10 [9; 10] = [0; 0; 0; 0; 0; 0; 9; 10] /\
  splice [1; 2; 3; 4; 5; 0; 9; 10] 4 8 [5; 6; 7; 8] = [1; 2; 3; 4; 5; 6; 7; 8].
Proof. split; reflexivity. Qed.

(** Completion without a first fragment is the error outcome, and the slot is gone. *)
Example error_outcome :
  recv_fragment [] (mkFrag x_k 3 0 [] []) = ([], OError).
Proof. reflexivity. Qed.

Example damaged_noop_nonvacuous :
  let h := [Damaged x_F0; Intact x_F2; Damaged x_F1; Intact x_F1; Damaged x_F2; Intact x_F0; Damaged x_F0] in
  intact_only h = [x_F2; x_F1; x_F0] /\
  deliveries_arr init h = [mkDelivered x_k x_p (f_blocks x_F0)].
Proof. cbn zeta. split; vm_compute; reflexivity. Qed.

