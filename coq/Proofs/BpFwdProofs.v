(** Proofs for property C11 over [Model/BpFwd.v].  The forwarded bundle [do_fwd node now b] is well formed, so
    the octets handed to the convergence layer decode to it again ([c11_wire]); every statement of
    [Props/C11.v] about those octets is therefore a statement about [do_fwd node now b] itself. *)
From Coq Require Import List PeanoNat NArith Bool Lia.
From DTN Require Import Lib.Bytes Lib.Cbor Lib.CborProofs Lib.Crc Model.Bundle Model.BpFwd Proofs.BundleProofs
  Proofs.BundleCrcProofs.
Import ListNotations.
Local Open Scope N_scope.

Lemma filter_map_comm {A} (q : A -> bool) (f : A -> A) l :
  (forall x, q (f x) = q x) -> filter q (map f l) = map f (filter q l).
Proof.
  intros H. induction l as [|x l IH]; [reflexivity|]. cbn [map filter]. rewrite H.
  destruct (q x); cbn [map]; rewrite IH; reflexivity.
Qed.

Lemma map_ext_filter {A B} (q : A -> bool) (f g : A -> B) l :
  (forall x, In x l -> q x = true -> f x = g x) -> map f (filter q l) = map g (filter q l).
Proof.
  intros H. apply map_ext_in. intros x Hx. apply filter_In in Hx as [Hx Hq]. apply H; assumption.
Qed.

Lemma filter_nil {A} (q : A -> bool) l : (forall x, In x l -> q x = false) -> filter q l = [].
Proof.
  induction l as [|x l IH]; intros H; [reflexivity|]. cbn [filter].
  rewrite (H x (or_introl eq_refl)). apply IH. intros y Hy. apply H. right. exact Hy.
Qed.

Lemma NoDup_map_filter {A B} (f : A -> B) (q : A -> bool) l : NoDup (map f l) -> NoDup (map f (filter q l)).
Proof.
  induction l as [|x l IH]; cbn [map filter]; intros H; [constructor|].
  apply NoDup_cons_iff in H as [Hn Hd]. destruct (q x); [|apply IH, Hd].
  cbn [map]. constructor; [|apply IH, Hd].
  intros Hin. apply Hn. revert Hin. apply incl_map, incl_filter.
Qed.

Lemma filter_len_le {A} (q : A -> bool) l : (length (filter q l) <= length l)%nat.
Proof. induction l as [|x l IH]; cbn [filter length]; [lia|]. destruct (q x); cbn [length]; lia. Qed.

Lemma Forall2_map_same {A B} (R : A -> B -> Prop) (f : A -> B) l :
  (forall x, In x l -> R x (f x)) -> Forall2 R l (map f l).
Proof.
  induction l as [|x l IH]; intros H; cbn [map]; constructor.
  - apply H. left. reflexivity.
  - apply IH. intros y Hy. apply H. right. exact Hy.
Qed.

Lemma insert_bl_snoc x pre y : insert_bl x (pre ++ [y]) = (pre ++ [x]) ++ [y].
Proof.
  induction pre as [|z pre IH]; [reflexivity|].
  cbn [app insert_bl]. destruct (pre ++ [y]) as [|w t] eqn:E.
  - destruct pre; discriminate.
  - rewrite IH. reflexivity.
Qed.

Lemma insert_bl_split x l : exists pre post, l = pre ++ post /\ insert_bl x l = pre ++ x :: post.
Proof.
  induction l as [|y [|z t] IH]; [exists [], []; split; reflexivity|exists [], [y]; split; reflexivity|].
  destruct IH as (pre & post & E & E'). exists (y :: pre), post.
  change (insert_bl x (y :: z :: t)) with (y :: insert_bl x (z :: t)). rewrite E', E at 1. split; reflexivity.
Qed.

Lemma insert_bl_In x l y : In y (insert_bl x l) <-> y = x \/ In y l.
Proof.
  destruct (insert_bl_split x l) as (pre & post & -> & ->).
  rewrite !in_app_iff. cbn [In]. intuition congruence.
Qed.

Lemma insert_bl_length x l : length (insert_bl x l) = S (length l).
Proof.
  destruct (insert_bl_split x l) as (pre & post & -> & ->). rewrite !app_length. cbn [length]. lia.
Qed.

Lemma insert_bl_filter q x l :
  q x = false -> filter q (insert_bl x l) = filter q l.
Proof.
  intros Hq. destruct (insert_bl_split x l) as (pre & post & -> & ->).
  rewrite !filter_app. cbn [filter]. rewrite Hq. reflexivity.
Qed.

Lemma insert_bl_filter_nil q x l :
  q x = true -> filter q l = [] -> filter q (insert_bl x l) = [x].
Proof.
  intros Hq Hn. destruct (insert_bl_split x l) as (pre & post & -> & ->).
  rewrite filter_app in Hn. apply app_eq_nil in Hn as [H1 H2].
  rewrite filter_app. cbn [filter]. rewrite Hq, H1, H2. reflexivity.
Qed.

Lemma filter_remove_all (q p : cblock -> bool) l :
  (forall x, q x = true -> p x = false) -> filter q (remove_all p l) = filter q l.
Proof.
  intros H. unfold remove_all. induction l as [|x l IH]; [reflexivity|]. cbn [filter].
  destruct (p x) eqn:Ep; cbn [negb filter].
  - destruct (q x) eqn:Eq; [rewrite (H x Eq) in Ep; discriminate|exact IH].
  - rewrite IH. reflexivity.
Qed.

Lemma memN_spec x l : memN x l = true <-> In x l.
Proof.
  unfold memN. rewrite existsb_exists. split.
  - intros (y & Hy & E). apply N.eqb_eq in E. subst. exact Hy.
  - intros H. exists x. split; [exact H|apply N.eqb_refl].
Qed.

Lemma memN_false x l : memN x l = false <-> ~ In x l.
Proof. rewrite <- memN_spec. destruct (memN x l); intuition congruence. Qed.

Lemma removeN_In c l y : In y (removeN c l) <-> In y l /\ y <> c.
Proof.
  unfold removeN. rewrite filter_In, negb_true_iff, N.eqb_neq. reflexivity.
Qed.

Lemma removeN_length c l : In c l -> (length (removeN c l) < length l)%nat.
Proof.
  unfold removeN. induction l as [|x l IH]; intros H; [destruct H|].
  cbn [filter]. destruct (N.eqb_spec x c) as [->|Hne]; cbn [negb length].
  - pose proof (filter_len_le (fun y => negb (y =? c)) l). lia.
  - destruct H as [->|H]; [congruence|]. specialize (IH H). lia.
Qed.

Lemma next_free_spec : forall fuel c used,
  (length used <= fuel)%nat ->
  ~ In (next_free fuel c used) used /\ c <= next_free fuel c used <= c + N.of_nat (length used).
Proof.
  induction fuel as [|f IH]; intros c used Hl.
  - destruct used; [|cbn in Hl; lia]. cbn. split; [tauto|lia].
  - cbn [next_free]. destruct (memN c used) eqn:E.
    + apply memN_spec in E. pose proof (removeN_length c used E) as Hlt.
      destruct (IH (c + 1) (removeN c used)) as [Hn Hb]; [lia|].
      split.
      * intros Hin. apply Hn. apply removeN_In. split; [exact Hin|]. lia.
      * lia.
    + apply memN_false in E. split; [exact E|lia].
Qed.

Lemma alloc_spec cnt used :
  ~ In (alloc cnt used) used /\ cnt + 1 <= alloc cnt used <= cnt + 1 + N.of_nat (length used).
Proof. unfold alloc. apply next_free_spec. lia. Qed.

Lemma nodupb_spec l : nodupb l = true <-> NoDup l.
Proof.
  induction l as [|x l IH]; cbn [nodupb]; [split; [constructor|reflexivity]|].
  rewrite andb_true_iff, negb_true_iff, IH. fold (memN x l). rewrite memN_false.
  split; [intros [H1 H2]; constructor; assumption|intros H; inversion H; subst; split; assumption].
Qed.

Lemma eid_eqb_refl a : eid_eqb a a = true.
Proof. destruct a; cbn [eid_eqb]; try reflexivity; apply bytes_eqb_eq; reflexivity. Qed.

Lemma eid_eqb_eq a b : eid_eqb a b = true <-> a = b.
Proof.
  split; [|intros ->; apply eid_eqb_refl].
  destruct a, b; cbn [eid_eqb]; intros H; try discriminate; try reflexivity;
    apply bytes_eqb_eq in H; subst; reflexivity.
Qed.

Lemma bump_hop_fields x :
  btype (bump_hop x) = btype x /\ bnum (bump_hop x) = bnum x /\ bflags (bump_hop x) = bflags x /\
  bcrc_type (bump_hop x) = bcrc_type x /\ bcrc (bump_hop x) = bcrc x.
Proof. unfold bump_hop. destruct (hop_view x) as [[l c]|]; repeat split; reflexivity. Qed.

Lemma bump_hop_btype x : btype (bump_hop x) = btype x.
Proof. apply bump_hop_fields. Qed.
Lemma bump_hop_bnum x : bnum (bump_hop x) = bnum x.
Proof. apply bump_hop_fields. Qed.

Lemma bump_hop_other x : (btype x =? BLOCK_HOP_COUNT) = false -> bump_hop x = x.
Proof. unfold bump_hop, hop_view. intros ->. reflexivity. Qed.

Lemma is_prev_type x : is_prev x = true -> btype x = 6.
Proof. unfold is_prev. intros H. apply andb_true_iff in H as [H _]. apply N.eqb_eq in H. exact H. Qed.
Lemma is_age_type x : is_age x = true -> btype x = 7.
Proof. unfold is_age. intros H. apply andb_true_iff in H as [H _]. apply N.eqb_eq in H. exact H. Qed.

Lemma bump_hop_recognised x : is_prev (bump_hop x) = is_prev x /\ is_age (bump_hop x) = is_age x.
Proof.
  destruct (btype x =? BLOCK_HOP_COUNT) eqn:E; [|rewrite bump_hop_other by exact E; split; reflexivity].
  apply N.eqb_eq in E. unfold is_prev, is_age. rewrite bump_hop_btype, E. split; reflexivity.
Qed.

Lemma norm_cblock_other a x : (btype x =? 1) = false -> impl_norm_cblock a x = x.
Proof. unfold impl_norm_cblock. intros ->. rewrite andb_false_r. reflexivity. Qed.

(** what [finish] does to a block: only the data of an administrative record and the CRC value can change *)
Definition fin (a : bool) (x : cblock) : cblock := with_crc_block (impl_norm_cblock a x).

Lemma fin_fields a x :
  btype (fin a x) = btype x /\ bnum (fin a x) = bnum x /\ bflags (fin a x) = bflags x /\
  bcrc_type (fin a x) = bcrc_type x.
Proof.
  unfold fin, impl_norm_cblock. destruct (a && (btype x =? 1)); [destruct (decode_admin_record (btsd x))|];
    repeat split; reflexivity.
Qed.

Lemma fin_btype a x : btype (fin a x) = btype x.
Proof. apply fin_fields. Qed.
Lemma fin_bnum a x : bnum (fin a x) = bnum x.
Proof. apply fin_fields. Qed.
Lemma fin_btsd_other a x : (btype x =? 1) = false -> btsd (fin a x) = btsd x.
Proof. intros H. unfold fin. rewrite norm_cblock_other by exact H. reflexivity. Qed.

Lemma fin_core a x : core (fin a x) = (btype x, bnum x, bflags x, bcrc_type x, btsd (impl_norm_cblock a x)).
Proof. destruct (fin_fields a x) as (Ht & Hn & Hf & Hc). unfold core. rewrite Ht, Hn, Hf, Hc. reflexivity. Qed.

(** the intermediate values of [fwd_blocks] *)
Definition prev_num (bl : list cblock) : N := alloc 1 (used_nums (remove_all is_prev bl)).
Definition prev_blk (node : eid) (bl : list cblock) : cblock :=
  new_block BLOCK_PREV_NODE (prev_num bl) (encode_prev_node (impl_norm_eid node)).
Definition mid_blocks (node : eid) (bl : list cblock) : list cblock :=
  remove_all is_age (map bump_hop (insert_bl (prev_blk node bl) (remove_all is_prev bl))).
Definition age_num (node : eid) (bl : list cblock) : N := alloc (prev_num bl) (used_nums (mid_blocks node bl)).
Definition age_blk (node : eid) (now ct : N) (bl : list cblock) : cblock :=
  new_block BLOCK_AGE (age_num node bl) (encode (age_item now ct)).

Definition ins_opt (o : option cblock) (l : list cblock) : list cblock :=
  match o with Some x => insert_bl x l | None => l end.
Definition age_opt (node : eid) (now ct : N) (bl : list cblock) : option cblock :=
  if ct =? 0 then None else Some (age_blk node now ct bl).

Lemma fwd_blocks_eq node now ct bl :
  fwd_blocks node now ct bl = ins_opt (age_opt node now ct bl) (mid_blocks node bl).
Proof. unfold fwd_blocks, age_opt. destruct (ct =? 0); reflexivity. Qed.

Lemma ins_opt_In o l y : In y (ins_opt o l) <-> o = Some y \/ In y l.
Proof.
  destruct o as [x|]; cbn [ins_opt]; [rewrite insert_bl_In|]; intuition congruence.
Qed.

Lemma ins_opt_filter q o l : (forall x, o = Some x -> q x = false) -> filter q (ins_opt o l) = filter q l.
Proof. destruct o as [x|]; intros H; [apply insert_bl_filter, H|]; reflexivity. Qed.

Lemma age_opt_Some node now ct bl x : age_opt node now ct bl = Some x -> ct <> 0 /\ x = age_blk node now ct bl.
Proof. unfold age_opt. destruct (N.eqb_spec ct 0); [discriminate|]. intros [= <-]. split; [assumption|reflexivity]. Qed.

Lemma fwd_blocks_In node now ct bl x :
  In x (fwd_blocks node now ct bl) ->
  (exists y, In y bl /\ x = bump_hop y) \/ x = prev_blk node bl \/ (ct <> 0 /\ x = age_blk node now ct bl).
Proof.
  rewrite fwd_blocks_eq, ins_opt_In. intros [H|H].
  - right. right. apply age_opt_Some, H.
  - apply filter_In in H as [H _]. apply in_map_iff in H as (y & <- & Hy).
    apply insert_bl_In in Hy as [->|Hy]; [right; left; reflexivity|].
    left. exists y. split; [apply filter_In in Hy; apply Hy|reflexivity].
Qed.

(** blocks of a class [_do_fwd] neither removes nor inserts: same blocks, same order, hop counts bumped *)
Lemma fwd_filter_keep (q : cblock -> bool) node now ct bl :
  (forall x, q x = true -> is_prev x = false /\ is_age x = false) ->
  (forall x, q (bump_hop x) = q x) ->
  q (prev_blk node bl) = false ->
  q (age_blk node now ct bl) = false ->
  filter q (fwd_blocks node now ct bl) = map bump_hop (filter q bl).
Proof.
  intros Hq Hb H6 H7. rewrite fwd_blocks_eq, ins_opt_filter.
  - unfold mid_blocks.
    rewrite filter_remove_all by (intros x Hx; apply (Hq x Hx)).
    rewrite filter_map_comm by exact Hb. f_equal.
    rewrite insert_bl_filter by exact H6.
    apply filter_remove_all. intros x Hx. apply (Hq x Hx).
  - intros x Hx. apply age_opt_Some in Hx as [_ ->]. exact H7.
Qed.

(** the blocks of type [n]; [ty n] unfolds to the [fun x => btype x =? n] of the statements in [Props/C11.v] *)
Definition ty (n : N) (x : cblock) : bool := btype x =? n.

Lemma ty_bump n x : ty n (bump_hop x) = ty n x.
Proof. unfold ty. rewrite bump_hop_btype. reflexivity. Qed.
Lemma ty_fin a n x : ty n (fin a x) = ty n x.
Proof. unfold ty. rewrite fin_btype. reflexivity. Qed.

Lemma ty_not_prev n x : n <> 6 -> ty n x = true -> is_prev x = false.
Proof. intros Hn Hx%N.eqb_eq. destruct (is_prev x) eqn:E; [apply is_prev_type in E; congruence|reflexivity]. Qed.
Lemma ty_not_age n x : n <> 7 -> ty n x = true -> is_age x = false.
Proof. intros Hn Hx%N.eqb_eq. destruct (is_age x) eqn:E; [apply is_age_type in E; congruence|reflexivity]. Qed.

Lemma fwd_filter_ty n node now ct bl :
  n <> 6 -> n <> 7 -> filter (ty n) (fwd_blocks node now ct bl) = map bump_hop (filter (ty n) bl).
Proof.
  intros H6 H7. apply fwd_filter_keep.
  - intros x Hx. split; [apply (ty_not_prev n)|apply (ty_not_age n)]; assumption.
  - apply ty_bump.
  - apply N.eqb_neq, not_eq_sym, H6.
  - apply N.eqb_neq, not_eq_sym, H7.
Qed.

(** the shape of [prev_parseb] and [age_parseb] *)
Lemma recognised_all n (p : cblock -> bool) bl :
  forallb (fun x => negb (btype x =? n) || p x) bl = true -> forall x, In x bl -> btype x = n -> p x = true.
Proof. intros H x Hx E. apply (proj1 (forallb_forall _ _) H) in Hx. rewrite E, N.eqb_refl in Hx. exact Hx. Qed.

Lemma filter_ty_removed n (p : cblock -> bool) l :
  (forall x, In x l -> btype x = n -> p x = true) -> filter (ty n) (remove_all p l) = [].
Proof.
  intros H. apply filter_nil. intros x Hx. apply filter_In in Hx as [Hx Hp]. apply negb_true_iff in Hp.
  unfold ty. destruct (N.eqb_spec (btype x) n) as [E|E]; [|reflexivity].
  rewrite (H x Hx E) in Hp. discriminate.
Qed.

Lemma fwd_filter_prev node now ct bl :
  (forall x, In x bl -> btype x = BLOCK_PREV_NODE -> is_prev x = true) ->
  filter (ty 6) (fwd_blocks node now ct bl) = [prev_blk node bl].
Proof.
  intros Hall. rewrite fwd_blocks_eq, ins_opt_filter.
  - unfold mid_blocks.
    rewrite filter_remove_all by (intros x; apply ty_not_age; discriminate).
    rewrite filter_map_comm by apply ty_bump.
    rewrite insert_bl_filter_nil; [reflexivity|reflexivity|apply filter_ty_removed, Hall].
  - intros x Hx. apply age_opt_Some in Hx as [_ ->]. reflexivity.
Qed.

Lemma fwd_filter_age node now ct bl :
  (forall x, In x bl -> btype x = BLOCK_AGE -> is_age x = true) ->
  filter (ty 7) (fwd_blocks node now ct bl) = if ct =? 0 then [] else [age_blk node now ct bl].
Proof.
  intros Hall.
  assert (Hm : filter (ty 7) (mid_blocks node bl) = []).
  { apply filter_ty_removed. intros x Hx E. apply in_map_iff in Hx as (y & <- & Hy).
    rewrite bump_hop_btype in E. rewrite (proj2 (bump_hop_recognised y)).
    apply insert_bl_In in Hy as [->|Hy]; [discriminate E|].
    apply filter_In in Hy. apply Hall; [apply Hy|exact E]. }
  rewrite fwd_blocks_eq. unfold age_opt. destruct (ct =? 0); [exact Hm|].
  apply insert_bl_filter_nil; [reflexivity|exact Hm].
Qed.

Lemma used_filter q l : NoDup (used_nums l) -> NoDup (used_nums (filter q l)).
Proof.
  unfold used_nums. intros H. apply NoDup_cons_iff in H as [Hn Hd]. constructor.
  - intros Hin. apply Hn. revert Hin. apply incl_map, incl_filter.
  - apply NoDup_map_filter. exact Hd.
Qed.

Lemma used_insert x l :
  NoDup (used_nums l) -> ~ In (bnum x) (used_nums l) -> NoDup (used_nums (insert_bl x l)).
Proof.
  unfold used_nums. destruct (insert_bl_split x l) as (pre & post & -> & ->). intros Hd Hn.
  rewrite map_app in *. apply (NoDup_Add (Add_app (bnum x) (0 :: map bnum pre) (map bnum post))).
  split; assumption.
Qed.

Lemma used_map f l : (forall x, bnum (f x) = bnum x) -> used_nums (map f l) = used_nums l.
Proof. intros H. unfold used_nums. rewrite map_map. f_equal. apply map_ext, H. Qed.

Theorem fwd_blocks_nodup node now ct bl :
  NoDup (used_nums bl) -> NoDup (used_nums (fwd_blocks node now ct bl)).
Proof.
  intros H. assert (Hm : NoDup (used_nums (mid_blocks node bl))).
  { unfold mid_blocks, remove_all. apply used_filter. rewrite used_map by apply bump_hop_bnum.
    apply used_insert; [apply used_filter, H|]. apply alloc_spec. }
  rewrite fwd_blocks_eq. unfold age_opt. destruct (ct =? 0); [exact Hm|].
  apply used_insert; [exact Hm|apply alloc_spec].
Qed.

Lemma used_nums_length l : length (used_nums l) = S (length l).
Proof. unfold used_nums. cbn [length]. rewrite map_length. reflexivity. Qed.

Lemma prev_num_bound bl : 2 <= prev_num bl <= 3 + N.of_nat (length bl).
Proof.
  unfold prev_num. pose proof (alloc_spec 1 (used_nums (remove_all is_prev bl))) as [_ H].
  rewrite used_nums_length in H. unfold remove_all in *.
  pose proof (filter_len_le (fun x => negb (is_prev x)) bl). lia.
Qed.

Lemma mid_blocks_length node bl : (length (mid_blocks node bl) <= S (length bl))%nat.
Proof.
  unfold mid_blocks, remove_all.
  eapply Nat.le_trans; [apply filter_len_le|]. rewrite map_length, insert_bl_length.
  pose proof (filter_len_le (fun x => negb (is_prev x)) bl). lia.
Qed.

Lemma age_num_bound node bl : age_num node bl <= 7 + 2 * N.of_nat (length bl).
Proof.
  unfold age_num. pose proof (alloc_spec (prev_num bl) (used_nums (mid_blocks node bl))) as [_ H].
  rewrite used_nums_length in H.
  pose proof (prev_num_bound bl). pose proof (mid_blocks_length node bl) as Hl. lia.
Qed.

Lemma remove_all_snoc p pre y : p y = false -> remove_all p (pre ++ [y]) = remove_all p pre ++ [y].
Proof. intros H. unfold remove_all. rewrite filter_app. cbn [filter]. rewrite H. reflexivity. Qed.

Theorem fwd_blocks_last node now ct pre pl :
  btype pl = 1 -> exists pre', fwd_blocks node now ct (pre ++ [pl]) = pre' ++ [pl].
Proof.
  intros H1. rewrite fwd_blocks_eq. unfold mid_blocks.
  rewrite (remove_all_snoc is_prev) by (unfold is_prev; rewrite H1; reflexivity).
  rewrite insert_bl_snoc, map_app. cbn [map].
  rewrite (bump_hop_other pl) by (rewrite H1; reflexivity).
  rewrite remove_all_snoc by (unfold is_age; rewrite H1; reflexivity).
  destruct (age_opt _ _ _ _); cbn [ins_opt]; [rewrite insert_bl_snoc|]; eexists; reflexivity.
Qed.

Lemma decode_one_encode v : Cbor.wf v -> (depth v <= bundle_fuel)%nat -> decode_one (encode v) = Some v.
Proof. intros Hw Hd. unfold decode_one, decode. rewrite decode_gen_encode_nil by assumption. reflexivity. Qed.

Lemma prev_node_roundtrip e : wf_eid e -> decode_prev_node (encode_prev_node e) = Some e.
Proof.
  intros H. unfold decode_prev_node, encode_prev_node.
  rewrite decode_one_encode; [apply eid_roundtrip, H|apply cbor_of_eid_wf, H|].
  pose proof (cbor_of_eid_depth e). unfold bundle_fuel. lia.
Qed.

Lemma bundle_age_roundtrip n : n < two64 -> decode_bundle_age (encode_bundle_age n) = Some n.
Proof.
  intros H. unfold decode_bundle_age, encode_bundle_age.
  rewrite decode_one_encode; [reflexivity|exact H|cbn; unfold bundle_fuel; lia].
Qed.

Lemma hop_count_roundtrip l c : l < two64 -> c < two64 -> decode_hop_count (encode_hop_count (l, c)) = Some (l, c).
Proof.
  intros Hl Hc. unfold decode_hop_count, encode_hop_count. cbn [fst snd].
  rewrite decode_one_encode; [reflexivity| |cbn; unfold bundle_fuel; lia].
  cbn. repeat split; try assumption; lia.
Qed.

Lemma decode_hop_count_inv bs l c :
  decode_hop_count bs = Some (l, c) -> decode bundle_fuel bs = Some (CArr [CUint l; CUint c], []).
Proof.
  unfold decode_hop_count, decode_one.
  destruct (decode bundle_fuel bs) as [[v [|]]|]; try discriminate.
  destruct v as [| | | |[|[l'| | | | | | |] t]| | |]; try discriminate.
  destruct t as [|[c'| | | | | | |] [|]]; try discriminate.
  intros [= -> ->]. reflexivity.
Qed.

Lemma hop_view_bounds x l c : wf_cblock x -> hop_view x = Some (l, c) -> l < two64 /\ c < two64.
Proof.
  intros (_ & _ & _ & _ & Hlen & Hwf & _). unfold hop_view.
  destruct (btype x =? BLOCK_HOP_COUNT); [|discriminate]. intros H.
  apply decode_hop_count_inv, decode_wf in H as [H _]; [|exact Hwf|exact Hlen].
  cbn in H. tauto.
Qed.

Lemma encode_hop_count_length l c : (length (encode_hop_count (l, c)) <= 19)%nat.
Proof.
  unfold encode_hop_count. cbn [fst snd]. rewrite encode_arr_length.
  rewrite !encode_seq_length_cons. cbn [encode_seq map concat length].
  rewrite !encode_uint_length. cbn [length].
  pose proof (head_len_bounds l). pose proof (head_len_bounds c).
  change (head_len (N.of_nat 2)) with 1%nat. lia.
Qed.

Lemma crc_field_wf ct bs :
  ct < 3 ->
  match crc_field ct bs with
  | Some v => ct <> 0 /\ N.of_nat (length v) < two64 /\ wf_bytes v
  | None => ct = 0
  end.
Proof.
  intros H. unfold crc_field. destruct (N.eqb_spec ct 1) as [E1|E1].
  - cbv beta iota. unfold crc16_x25_field. rewrite be_length. split; [lia|]. split; [cbn; lia|apply be_wf].
  - destruct (N.eqb_spec ct 2) as [E2|E2]; [|lia].
    cbv beta iota. unfold crc32c_field. rewrite be_length. split; [lia|]. split; [cbn; lia|apply be_wf].
Qed.

(** [wf_cblock] and [wf_primary] are conjunctions of conditions on single fields: a setter keeps those of
    the fields it leaves alone ([assumption] sees through the projections) *)
Lemma set_btsd_wf x d : wf_cblock x -> N.of_nat (length d) < two64 -> wf_bytes d -> wf_cblock (set_btsd x d).
Proof. intros (H1 & H2 & H3 & H4 & _ & _ & H7) Hl Hd. repeat (split; [assumption|]). exact H7. Qed.

Lemma with_crc_block_wf x : wf_cblock x -> wf_cblock (with_crc_block x).
Proof. intros (H1 & H2 & H3 & H4 & H5 & H6 & _). repeat (split; [assumption|]). apply crc_field_wf, H4. Qed.

Lemma with_crc_primary_wf p : wf_primary p -> wf_primary (with_crc_primary p).
Proof.
  intros (H1 & H2 & H3 & H4 & H5 & H6 & H7 & H8 & H9 & H10 & _).
  repeat (split; [assumption|]). apply crc_field_wf, H3.
Qed.

Lemma apply_primary_wf now p : now < two64 -> wf_primary p -> wf_primary (apply_primary now p).
Proof.
  intros Hn (H1 & H2 & H3 & H4 & H5 & H6 & H7 & H8 & H9 & H10 & H11).
  repeat (split; [assumption|]). unfold apply_primary, DEFAULT_LIFETIME. cbn [create_time create_seq lifetime].
  repeat split; try assumption; destruct (_ =? 0); (assumption || lia).
Qed.

Lemma apply_primary_keeps now p :
  (create_time p <> 0 -> create_time (apply_primary now p) = create_time p /\ create_seq (apply_primary now p) = create_seq p) /\
  (lifetime p <> 0 -> lifetime (apply_primary now p) = lifetime p).
Proof.
  unfold apply_primary. cbn [create_time create_seq lifetime].
  split; intros H; apply N.eqb_neq in H; rewrite H; repeat split.
Qed.

Lemma apply_norm_comm now p : impl_norm_primary (apply_primary now p) = apply_primary now (impl_norm_primary p).
Proof. reflexivity. Qed.

Lemma bump_hop_wf x : wf_cblock x -> hop_okb x = true -> wf_cblock (bump_hop x).
Proof.
  intros Hw Hok. unfold bump_hop. unfold hop_okb in Hok.
  destruct (hop_view x) as [[l c]|] eqn:E; [|exact Hw].
  destruct (hop_view_bounds x l c Hw E) as [Hl Hc]. apply N.ltb_lt in Hok.
  apply set_btsd_wf; [exact Hw| |apply encode_wf; cbn; lia].
  pose proof (encode_hop_count_length l (c + 1)). lia.
Qed.

Lemma bump_hop_data x :
  wf_cblock x -> hop_okb x = true -> btype x = BLOCK_HOP_COUNT ->
  match decode_hop_count (btsd x) with
  | Some (l, c) => decode_hop_count (btsd (bump_hop x)) = Some (l, c + 1)
  | None => btsd (bump_hop x) = btsd x
  end.
Proof.
  intros Hw Hok Ht. unfold bump_hop. unfold hop_okb in Hok.
  assert (Hv : hop_view x = decode_hop_count (btsd x)) by (unfold hop_view; rewrite Ht; reflexivity).
  rewrite <- Hv. destruct (hop_view x) as [[l c]|] eqn:E; [|reflexivity].
  destruct (hop_view_bounds x l c Hw E) as [Hl _]. apply N.ltb_lt in Hok.
  apply hop_count_roundtrip; assumption.
Qed.

Lemma new_block_wf t n d :
  t < two64 -> n < two64 -> N.of_nat (length d) < two64 -> wf_bytes d -> wf_cblock (new_block t n d).
Proof. intros. repeat split; try assumption; reflexivity. Qed.

Lemma age_item_wf now ct : now < two64 -> ct < two64 -> Cbor.wf (age_item now ct).
Proof. intros. unfold age_item. destruct (ct <=? now) eqn:E; cbn; lia. Qed.

Lemma age_item_length now ct : (length (encode (age_item now ct)) <= 9)%nat.
Proof.
  unfold age_item. destruct (ct <=? now); rewrite ?encode_uint_length, ?encode_nint_length; apply head_len_bounds.
Qed.

(** what [impl_admin_ok] asks of a block of an administrative bundle *)
Definition adm_blk (blk : cblock) : bool :=
  if btype blk =? 1 then match decode_admin_record (btsd blk) with Some _ => true | None => false end else true.

Set Implicit Arguments.
Record fwd_in (node : eid) (now : N) (b : bundle) : Prop := mkFwdIn {
  in_wfp : wf_primary (impl_norm_primary (prim b));
  in_wfn : forall x, In x (blocks b) -> wf_cblock (impl_norm_cblock (is_admin (prim b)) x);
  in_wfb : forall x, In x (blocks b) -> wf_cblock x;
  in_adm : is_admin (prim b) = true -> forall y, In y (blocks b) -> adm_blk (impl_norm_cblock true y) = true;
  in_nod : NoDup (used_nums (blocks b));
  in_len : N.of_nat (length (blocks b)) < 4294967296;
  in_hop : forall x, In x (blocks b) -> hop_okb x = true;
  in_raise : existsb hop_raises (blocks b) = false;
  in_now : now < two64;
  in_node_wf : wf_eid node;
  in_node_stable : impl_norm_eid node = node;
  in_node_len : N.of_nat (length (encode_prev_node node)) < two64
}.
Unset Implicit Arguments.

Lemma fwd_inb_spec node now b : fwd_inb node now b = true -> fwd_in node now b.
Proof.
  unfold fwd_inb, node_okb, lt64. intros H.
  (* every conjunct becomes a hypothesis; each field below finds its own by [assumption] *)
  repeat match goal with H : _ && _ = true |- _ => apply andb_prop in H; destruct H end.
  constructor.
  - apply wf_primaryb_spec. assumption.
  - assert (Hn : forallb wf_cblockb (blocks (impl_norm_bundle b)) = true) by assumption.
    intros x Hx. apply wf_cblockb_spec, (proj1 (forallb_forall _ _) Hn), (in_map (impl_norm_cblock _) _ x Hx).
  - assert (Hw : forallb wf_cblockb (blocks b) = true) by assumption.
    intros x Hx. apply wf_cblockb_spec, (proj1 (forallb_forall _ _) Hw), Hx.
  - intros Ea y Hy.
    assert (Hadm : impl_admin_ok (impl_norm_bundle b) = true) by assumption. unfold impl_admin_ok in Hadm.
    change (is_admin (prim (impl_norm_bundle b))) with (is_admin (prim b)) in Hadm.
    change (blocks (impl_norm_bundle b)) with (map (impl_norm_cblock (is_admin (prim b))) (blocks b)) in Hadm.
    rewrite Ea in Hadm. apply (proj1 (forallb_forall _ _) Hadm), in_map, Hy.
  - apply nodupb_spec. assumption.
  - apply N.ltb_lt. assumption.
  - apply forallb_forall. assumption.
  - apply negb_true_iff. assumption.
  - apply N.ltb_lt. assumption.
  - apply wf_eidb_spec. assumption.
  - apply eid_eqb_eq. assumption.
  - apply N.ltb_lt. assumption.
Qed.

Lemma do_fwd_blocks node now b :
  blocks (do_fwd node now b) =
  map (fin (is_admin (prim b))) (fwd_blocks node now (create_time (prim b)) (blocks b)).
Proof. unfold do_fwd, finish, with_crc_bundle, impl_norm_bundle. cbn [prim blocks]. rewrite map_map. reflexivity. Qed.

Lemma impl_prev_parses_encode e : wf_eid e -> impl_prev_parses (encode_prev_node e) = true.
Proof.
  intros H. unfold impl_prev_parses, encode_prev_node.
  destruct (encode (cbor_of_eid e)) eqn:E; [reflexivity|]. rewrite <- E.
  unfold decode. rewrite decode_gen_encode_nil; [|apply cbor_of_eid_wf, H|pose proof (cbor_of_eid_depth e); unfold bundle_fuel; lia].
  destruct e; reflexivity.
Qed.

Lemma impl_age_parses_encode now ct : now < two64 -> ct < two64 -> impl_age_parses (encode (age_item now ct)) = true.
Proof.
  intros Hn Hc. unfold impl_age_parses.
  destruct (encode (age_item now ct)) eqn:E; [reflexivity|]. rewrite <- E.
  unfold decode. rewrite decode_gen_encode_nil; [|apply age_item_wf; assumption|].
  - unfold age_item. destruct (ct <=? now); reflexivity.
  - unfold age_item. destruct (ct <=? now); cbn; unfold bundle_fuel; lia.
Qed.

(** [do_fwd] ends in [with_crc_bundle]: the CRCs check whatever was received *)
Lemma fwd_crcs_valid node now b : crc_ok_bundle (do_fwd node now b) = true.
Proof. apply check_accepts_bundle. Qed.

Section C11.
  Variables (node : eid) (now : N) (b : bundle).
  Hypothesis Hb : fwd_inb node now b = true.

  Let Hin : fwd_in node now b := fwd_inb_spec node now b Hb.
  Let a := is_admin (prim b).
  Let ct := create_time (prim b).
  Let out := do_fwd node now b.

  Lemma create_time_lt64 : ct < two64.
  Proof. destruct (in_wfp Hin) as (_ & _ & _ & _ & _ & _ & H & _). exact H. Qed.

  Lemma prev_blk_wf : wf_cblock (prev_blk node (blocks b)).
  Proof.
    unfold prev_blk. rewrite (in_node_stable Hin). apply new_block_wf.
    - cbv. reflexivity.
    - pose proof (prev_num_bound (blocks b)). pose proof (in_len Hin). lia.
    - apply (in_node_len Hin).
    - apply encode_wf, cbor_of_eid_wf, (in_node_wf Hin).
  Qed.

  Lemma age_blk_wf : wf_cblock (age_blk node now ct (blocks b)).
  Proof.
    unfold age_blk. apply new_block_wf.
    - cbv. reflexivity.
    - pose proof (age_num_bound node (blocks b)). pose proof (in_len Hin). lia.
    - pose proof (age_item_length now ct). lia.
    - apply encode_wf, age_item_wf; [apply (in_now Hin)|apply create_time_lt64].
  Qed.

  Lemma out_block_ok z : In z (blocks (do_fwd node now b)) -> wf_cblock z /\ (a = true -> adm_blk z = true).
  Proof.
    rewrite do_fwd_blocks. fold a ct. intros Hz. apply in_map_iff in Hz as (x & <- & Hx).
    assert (Hn : (btype x =? 1) = false -> wf_cblock x -> wf_cblock (fin a x) /\ (a = true -> adm_blk (fin a x) = true)).
    { intros E Hw. split; [|intros _; unfold adm_blk; rewrite fin_btype, E; reflexivity].
      unfold fin. rewrite norm_cblock_other by exact E. apply with_crc_block_wf, Hw. }
    apply fwd_blocks_In in Hx as [(y & Hy & ->)|[->|[_ ->]]].
    - destruct (btype y =? 1) eqn:E1.
      + rewrite bump_hop_other by (apply N.eqb_eq in E1; rewrite E1; reflexivity). split.
        * apply with_crc_block_wf, (in_wfn Hin), Hy.
        * intros Ea. rewrite Ea. apply (in_adm Hin Ea y Hy).
      + apply Hn; [rewrite bump_hop_btype; exact E1|].
        apply bump_hop_wf; [apply (in_wfb Hin), Hy|apply (in_hop Hin), Hy].
    - apply Hn; [reflexivity|apply prev_blk_wf].
    - apply Hn; [reflexivity|apply age_blk_wf].
  Qed.

  Theorem c11_wire : decode_bundle (encode_bundle (do_fwd node now b)) = Some (do_fwd node now b).
  Proof.
    apply encode_bundle_roundtrip.
    - apply (with_crc_primary_wf (apply_primary now (impl_norm_primary (prim b)))), apply_primary_wf;
        [apply (in_now Hin)|apply (in_wfp Hin)].
    - apply Forall_forall. intros z Hz. apply out_block_ok, Hz.
    - unfold impl_admin_ok. change (is_admin (prim (do_fwd node now b))) with a.
      destruct a eqn:Ea; [|reflexivity].
      apply forallb_forall. intros z Hz. apply (out_block_ok z Hz), Ea.
  Qed.
  (** the statements of [Props/C11.v] about the octets follow from the lemmas of this section by rewriting
      with this equation *)
  Lemma c11_w w : decode_bundle (encode_bundle (do_fwd node now b)) = Some w -> w = do_fwd node now b.
  Proof. rewrite c11_wire. intros H. injection H as <-. reflexivity. Qed.

  Lemma fwd_out_filter (q : cblock -> bool) :
    (forall x, q (fin a x) = q x) ->
    filter q (blocks out) = map (fin a) (filter q (fwd_blocks node now ct (blocks b))).
  Proof. intros H. unfold out. rewrite do_fwd_blocks. apply filter_map_comm. exact H. Qed.

  Lemma fwd_primary_always :
    prim out = with_crc_primary (apply_primary now (impl_norm_primary (prim b))) /\
    version (prim out) = version (prim b) /\ flags (prim out) = flags (prim b) /\
    crc_type (prim out) = crc_type (prim b) /\ frag (prim out) = frag (prim b) /\
    (create_time (prim b) <> 0 -> create_time (prim out) = create_time (prim b) /\ create_seq (prim out) = create_seq (prim b)) /\
    (lifetime (prim b) <> 0 -> lifetime (prim out) = lifetime (prim b)).
  Proof.
    repeat (split; [reflexivity|]). exact (apply_primary_keeps now (impl_norm_primary (prim b))).
  Qed.

  Lemma fwd_primary_unchanged :
    eids_stableb (prim b) = true -> (create_time (prim b) =? 0) = false -> (lifetime (prim b) =? 0) = false ->
    version (prim out) = version (prim b) /\ flags (prim out) = flags (prim b) /\
    crc_type (prim out) = crc_type (prim b) /\
    dest (prim out) = dest (prim b) /\ src (prim out) = src (prim b) /\
    report_to (prim out) = report_to (prim b) /\
    create_time (prim out) = create_time (prim b) /\ create_seq (prim out) = create_seq (prim b) /\
    lifetime (prim out) = lifetime (prim b) /\ frag (prim out) = frag (prim b).
  Proof.
    unfold eids_stableb. rewrite !andb_true_iff. intros [[Hd Hs] Hr] Ht Hl.
    apply eid_eqb_eq in Hd, Hs, Hr. apply N.eqb_neq in Ht, Hl.
    destruct fwd_primary_always as (_ & Hv & Hf & Hc & Hg & Hts & Hlt). destruct (Hts Ht) as [Ht' Hs'].
    repeat split; auto.
  Qed.

  Lemma fwd_payload_unchanged :
    payload_stableb b = true ->
    map core (filter (ty 1) (blocks out)) = map core (filter (ty 1) (blocks b)).
  Proof.
    intros Hs. rewrite fwd_out_filter by apply ty_fin. rewrite fwd_filter_ty by discriminate. rewrite !map_map.
    apply map_ext_filter. intros x Hxin Hx.
    unfold payload_stableb in Hs. rewrite forallb_forall in Hs. specialize (Hs x Hxin).
    unfold ty in Hx. rewrite Hx in Hs. cbn [negb orb] in Hs. apply bytes_eqb_eq in Hs.
    rewrite bump_hop_other by (apply N.eqb_eq in Hx; rewrite Hx; reflexivity).
    fold a in Hs. rewrite fin_core, Hs. reflexivity.
  Qed.

  Lemma fwd_prev_exactly_one :
    prev_parseb b = true ->
    exists blk, filter (ty 6) (blocks out) = [blk] /\ decode_prev_node (btsd blk) = Some node.
  Proof.
    intros Hp. rewrite fwd_out_filter by apply ty_fin. rewrite fwd_filter_prev by exact (recognised_all 6 is_prev _ Hp).
    cbn [map]. eexists. split; [reflexivity|].
    rewrite fin_btsd_other by reflexivity. cbn [prev_blk new_block btsd].
    rewrite (in_node_stable Hin). apply prev_node_roundtrip, (in_node_wf Hin).
  Qed.

  Lemma fwd_hop_count :
    Forall2 (fun rb wb =>
               bnum wb = bnum rb /\ bflags wb = bflags rb /\ bcrc_type wb = bcrc_type rb /\
               match decode_hop_count (btsd rb) with
               | Some (l, c) => decode_hop_count (btsd wb) = Some (l, c + 1)
               | None => btsd wb = btsd rb
               end)
            (filter (ty 10) (blocks b)) (filter (ty 10) (blocks out)).
  Proof.
    rewrite fwd_out_filter by apply ty_fin. rewrite fwd_filter_ty by discriminate. rewrite map_map.
    apply Forall2_map_same. intros x Hx. apply filter_In in Hx as [Hx Ht]. apply N.eqb_eq in Ht.
    destruct (fin_fields a (bump_hop x)) as (_ & -> & -> & ->).
    destruct (bump_hop_fields x) as (_ & -> & -> & -> & _).
    repeat (split; [reflexivity|]).
    rewrite fin_btsd_other by (rewrite bump_hop_btype, Ht; reflexivity).
    apply bump_hop_data; [apply (in_wfb Hin), Hx|apply (in_hop Hin), Hx|exact Ht].
  Qed.

  Lemma fwd_age_at_most_one :
    age_parseb b = true ->
    (create_time (prim b) = 0 -> filter (ty 7) (blocks out) = []) /\
    (create_time (prim b) <> 0 ->
     exists blk, filter (ty 7) (blocks out) = [blk] /\
                 (create_time (prim b) <= now -> decode_bundle_age (btsd blk) = Some (now - create_time (prim b)))).
  Proof.
    intros Hp. rewrite fwd_out_filter by apply ty_fin. rewrite fwd_filter_age by exact (recognised_all 7 is_age _ Hp).
    fold ct. split; intros E.
    - rewrite E. reflexivity.
    - apply N.eqb_neq in E. rewrite E. cbn [map]. eexists. split; [reflexivity|].
      intros Hle. rewrite fin_btsd_other by reflexivity. cbn [age_blk new_block btsd].
      unfold age_item. apply N.leb_le in Hle. rewrite Hle.
      apply bundle_age_roundtrip. pose proof (in_now Hin). lia.
  Qed.

  Lemma fwd_numbers_unique : NoDup (map bnum (blocks out)) /\ ~ In 0 (map bnum (blocks out)).
  Proof.
    apply and_comm, NoDup_cons_iff. change (NoDup (used_nums (blocks out))).
    unfold out. rewrite do_fwd_blocks, used_map by apply fin_bnum. apply fwd_blocks_nodup, (in_nod Hin).
  Qed.

  Lemma fwd_payload_last_num1 :
    payload_last_num1b (blocks b) = true ->
    exists pre pl, blocks out = pre ++ [pl] /\ btype pl = 1 /\ bnum pl = 1.
  Proof.
    unfold payload_last_num1b. destruct (rev (blocks b)) as [|pl r] eqn:E; [discriminate|]. intros H.
    apply andb_true_iff in H as [H1 Hn]. apply N.eqb_eq in H1, Hn.
    apply (f_equal (@rev _)) in E. rewrite rev_involutive in E. cbn [rev] in E.
    destruct (fwd_blocks_last node now ct (rev r) pl H1) as [pre' Hl].
    unfold out. rewrite do_fwd_blocks, E. fold a ct. rewrite Hl, map_app. cbn [map].
    exists (map (fin a) pre'), (fin a pl).
    split; [reflexivity|]. rewrite fin_btype, fin_bnum. split; assumption.
  Qed.

  Lemma untouched_fin x : untouchedb (fin a x) = untouchedb x.
  Proof.
    unfold untouchedb. rewrite fin_btype.
    destruct (btype x =? BLOCK_PAYLOAD) eqn:E; [rewrite !andb_false_r; reflexivity|].
    unfold is_prev, is_age. rewrite fin_btype, fin_btsd_other by exact E. reflexivity.
  Qed.

  Lemma fwd_other_blocks_untouched :
    map core (filter untouchedb (blocks out)) = map core (filter untouchedb (blocks b)).
  Proof.
    rewrite fwd_out_filter by apply untouched_fin. rewrite fwd_filter_keep.
    - rewrite !map_map. apply map_ext_filter. intros x _ Hx.
      unfold untouchedb in Hx. rewrite !andb_true_iff, !negb_true_iff in Hx. destruct Hx as [[[_ _] H10] H1].
      rewrite bump_hop_other, fin_core, norm_cblock_other by assumption. reflexivity.
    - intros x Hx. unfold untouchedb in Hx. rewrite !andb_true_iff, !negb_true_iff in Hx. tauto.
    - intros x. unfold untouchedb. destruct (bump_hop_recognised x) as [-> ->]. rewrite bump_hop_btype. reflexivity.
    - unfold untouchedb. assert (H : is_prev (prev_blk node (blocks b)) = true); [|rewrite H; reflexivity].
      unfold is_prev. cbn [prev_blk new_block btype btsd]. rewrite (in_node_stable Hin).
      rewrite impl_prev_parses_encode by apply (in_node_wf Hin). reflexivity.
    - unfold untouchedb. assert (H : is_age (age_blk node now ct (blocks b)) = true); [|rewrite H, andb_false_r; reflexivity].
      unfold is_age. cbn [age_blk new_block btype btsd].
      rewrite impl_age_parses_encode; [reflexivity|apply (in_now Hin)|apply create_time_lt64].
  Qed.
End C11.

Theorem recv_fwd_sent node now bs b :
  decode_bundle bs = Some b -> fwd_inb node now b = true -> recv_crc_ok b = true ->
  eid_eqb (src (prim b)) node = false ->
  recv_fwd node now bs = RxSent (encode_bundle (do_fwd node now b)).
Proof.
  intros Hd Hb Hc Hs. unfold recv_fwd. rewrite Hd.
  pose proof (fwd_inb_spec node now b Hb) as Hin.
  assert (H1 : nodupb (used_nums (blocks b)) = true) by (apply nodupb_spec, (in_nod Hin)).
  rewrite H1, Hc, Hs. cbn [negb].
  rewrite (in_raise Hin). reflexivity.
Qed.

Theorem recv_fwd_duplicate_numbers node now bs b :
  decode_bundle bs = Some b -> nodupb (used_nums (blocks b)) = false ->
  recv_fwd node now bs = RxContainerRaises.
Proof. intros Hd Hn. unfold recv_fwd. rewrite Hd, Hn. reflexivity. Qed.

Definition ex_node : eid := EidDtn [47; 47; 109; 101; 47].          (* dtn://me/ *)
Definition ex_now : N := 800000000000.
Definition ex_dest : eid := EidDtn [47; 47; 100; 47; 120].           (* dtn://d/x *)
Definition ex_primary (ct lt ctype : N) (d : eid) (fl : N) : primary :=
  mkPrimary 7 fl ctype d (EidIpn [1; 2]) EidDtnNone ct 3 lt None None.
Definition ex_prev : cblock := mkCBlock 6 2 0 0 (encode_prev_node (EidDtn [47; 47; 112; 47])) None.
Definition ex_hop : cblock := mkCBlock 10 3 0 1 (encode_hop_count (30, 3)) None.
Definition ex_age : cblock := mkCBlock 7 4 0 0 (encode_bundle_age 5) None.
Definition ex_unk : cblock := mkCBlock 192 5 1 2 [1; 2; 3] None.
Definition ex_pay : cblock := mkCBlock 1 1 0 2 [104; 105] None.
(** CRC values filled in, as a sender would *)
Definition mk_ex (p : primary) (bl : list cblock) : bundle := with_crc_bundle (mkBundle p bl).

(** a received bundle with one block of each kind: satisfies every hypothesis used below *)
Definition ex_bundle : bundle :=
  mk_ex (ex_primary 700000000000 1000 1 ex_dest 0) [ex_prev; ex_hop; ex_age; ex_unk; ex_pay].

Definition all_guards (node : eid) (now : N) (b : bundle) : list bool :=
  [fwd_inb node now b; eids_stableb (prim b); payload_stableb b; prev_parseb b; age_parseb b;
   payload_last_num1b (blocks b); negb (create_time (prim b) =? 0); negb (lifetime (prim b) =? 0);
   create_time (prim b) <=? now; recv_crc_ok b; negb (eid_eqb (src (prim b)) node)].

(** [g] is the value of [all_guards node now b], a literal list: each field reads one guard off it *)
Set Implicit Arguments.
Record guards_are (node : eid) (now : N) (b : bundle) (g : list bool) : Prop := mkGuards {
  g_in : fwd_inb node now b = nth 0 g false;
  g_eids : eids_stableb (prim b) = nth 1 g false;
  g_pay : payload_stableb b = nth 2 g false;
  g_prev : prev_parseb b = nth 3 g false;
  g_age : age_parseb b = nth 4 g false;
  g_last : payload_last_num1b (blocks b) = nth 5 g false;
  g_time : (create_time (prim b) =? 0) = negb (nth 6 g false);
  g_life : (lifetime (prim b) =? 0) = negb (nth 7 g false);
  g_clock : (create_time (prim b) <=? now) = nth 8 g false;
  g_crc : recv_crc_ok b = nth 9 g false;
  g_src : eid_eqb (src (prim b)) node = negb (nth 10 g false)
}.
Unset Implicit Arguments.

Lemma guards_of node now b g : all_guards node now b = g -> guards_are node now b g.
Proof. intros <-. constructor; cbn [all_guards nth]; rewrite ?negb_involutive; reflexivity. Qed.

(** the same for the bundle [b] at position [k] of a list of bundles evaluated together *)
Lemma guards_at node now bs gs k b g :
  map (all_guards node now) bs = gs -> nth_error bs k = Some b -> nth_error gs k = Some g -> guards_are node now b g.
Proof.
  intros <- Hb Hg. apply guards_of. rewrite (map_nth_error _ _ _ Hb) in Hg. injection Hg as <-. reflexivity.
Qed.

Example ex_bundle_hyps :
  all_guards ex_node ex_now ex_bundle = [true; true; true; true; true; true; true; true; true; true; true] /\
  decode_bundle (encode_bundle ex_bundle) = Some ex_bundle.
Proof. split; vm_compute; reflexivity. Qed.

(** what leaves the node: hop count [30,4] (CRC kept), unknown block as it came, previous node = dtn://me/
    numbered 2 (the number of the removed one), age 10^11 ms numbered 4, payload last *)
Example ex_bundle_forwarded :
  map core (blocks (do_fwd ex_node ex_now ex_bundle)) =
  [(10, 3, 0, 1, [130; 24; 30; 4]); (192, 5, 1, 2, [1; 2; 3]);
   (6, 2, 0, 0, [130; 1; 101; 47; 47; 109; 101; 47]);
   (7, 4, 0, 0, [27; 0; 0; 0; 23; 72; 118; 232; 0]);
   (1, 1, 0, 2, [104; 105])] /\
  recv_fwd ex_node ex_now (encode_bundle ex_bundle) = RxSent (encode_bundle (do_fwd ex_node ex_now ex_bundle)).
Proof.
  destruct ex_bundle_hyps as [G%guards_of Hrt]. split; [vm_compute; reflexivity|].
  exact (recv_fwd_sent _ _ _ _ Hrt (g_in G) (g_crc G) (g_src G)).
Qed.

(** a bundle all of whose guards evaluate to [true] satisfies each of them ([R]: whatever else is claimed of it) *)
Lemma guards_true node now b (R : Prop) :
  all_guards node now b = [true; true; true; true; true; true; true; true; true; true; true] -> R ->
  fwd_inb node now b = true /\ eids_stableb (prim b) = true /\
  payload_stableb b = true /\ prev_parseb b = true /\ age_parseb b = true /\
  payload_last_num1b (blocks b) = true /\
  (create_time (prim b) =? 0) = false /\ (lifetime (prim b) =? 0) = false /\
  create_time (prim b) <= now /\ recv_crc_ok b = true /\
  eid_eqb (src (prim b)) node = false /\ R.
Proof.
  intros [G0 G1 G2 G3 G4 G5 G6 G7 G8 G9 G10]%guards_of HR. apply N.leb_le in G8.
  repeat (split; [assumption|]). exact HR.
Qed.

(** witnesses of the refuted statements: each violates exactly one guard *)
Definition wit_time0 := mk_ex (ex_primary 0 1000 1 ex_dest 0) [ex_age; ex_pay].
Definition wit_life0 := mk_ex (ex_primary 700000000000 0 1 ex_dest 0) [ex_pay].
Definition query_dest : eid := EidDtn [47; 47; 100; 47; 120; 63; 121].   (* dtn://d/x?y *)
Definition wit_eid := mk_ex (ex_primary 700000000000 1000 0 query_dest 0) [ex_pay].
Definition query_report : status_report :=
  mkStatusReport (true, None) (false, None) (false, None) (false, None) 0
                 (EidDtn [47; 47; 120; 47; 97; 63; 98]) 5 1 None None.   (* subject source dtn://x/a?b *)
Definition wit_admin := mk_ex (ex_primary 700000000000 1000 1 ex_dest 2)
                              [mkCBlock 1 1 0 1 (encode_status_report query_report) None].
Definition wit_prevjunk := mk_ex (ex_primary 700000000000 1000 1 ex_dest 0) [mkCBlock 6 2 0 0 [5] None; ex_pay].
Definition wit_agejunk := mk_ex (ex_primary 700000000000 1000 1 ex_dest 0) [mkCBlock 7 2 0 0 [97; 120] None; ex_pay].
Definition wit_future := mk_ex (ex_primary 800000001000 1000 1 ex_dest 0) [ex_pay].
Definition wit_paypos := mk_ex (ex_primary 700000000000 1000 1 ex_dest 0) [ex_pay; ex_unk].

Example witnesses_guards :
  map (all_guards ex_node ex_now) [wit_time0; wit_life0; wit_eid; wit_admin; wit_prevjunk; wit_agejunk; wit_future; wit_paypos] =
  [[true; true; true; true; true; true; false; true; true; true; true];
   [true; true; true; true; true; true; true; false; true; true; true];
   [true; false; true; true; true; true; true; true; true; true; true];
   [true; true; false; true; true; true; true; true; true; true; true];
   [true; true; true; false; true; true; true; true; true; true; true];
   [true; true; true; true; false; true; true; true; true; true; true];
   [true; true; true; true; true; true; true; true; false; true; true];
   [true; true; true; true; true; false; true; true; true; true; true]].
Proof. vm_compute. reflexivity. Qed.

Definition wire (node : eid) (now : N) (b : bundle) : option bundle :=
  decode_bundle (encode_bundle (do_fwd node now b)).

Lemma time0_refutes :
  exists (node : eid) (now : N) (b w : bundle),
    fwd_inb node now b = true /\ eids_stableb (prim b) = true /\ (lifetime (prim b) =? 0) = false /\
    decode_bundle (encode_bundle (do_fwd node now b)) = Some w /\
    create_time (prim b) = 0 /\ create_time (prim w) = now /\
    create_seq (prim b) = 3 /\ create_seq (prim w) = 0 /\
    filter (fun x => btype x =? 7) (blocks b) <> [] /\ filter (fun x => btype x =? 7) (blocks w) = [].
Proof.
  pose proof (guards_at _ _ _ _ 0 wit_time0 _ witnesses_guards eq_refl eq_refl) as G.
  exists ex_node, ex_now, wit_time0, (do_fwd ex_node ex_now wit_time0).
  split; [exact (g_in G)|]. split; [exact (g_eids G)|]. split; [exact (g_life G)|].
  split; [exact (c11_wire _ _ _ (g_in G))|].
  repeat split; try reflexivity. discriminate.
Qed.

Lemma life0_refutes :
  exists (node : eid) (now : N) (b w : bundle),
    fwd_inb node now b = true /\ eids_stableb (prim b) = true /\ (create_time (prim b) =? 0) = false /\
    decode_bundle (encode_bundle (do_fwd node now b)) = Some w /\
    lifetime (prim b) = 0 /\ lifetime (prim w) = 3600000.
Proof.
  pose proof (guards_at _ _ _ _ 1 wit_life0 _ witnesses_guards eq_refl eq_refl) as G.
  exists ex_node, ex_now, wit_life0, (do_fwd ex_node ex_now wit_life0).
  split; [exact (g_in G)|]. split; [exact (g_eids G)|]. split; [exact (g_time G)|].
  split; [exact (c11_wire _ _ _ (g_in G))|]. split; reflexivity.
Qed.

Lemma eid_refutes :
  exists (node : eid) (now : N) (b w : bundle),
    fwd_inb node now b = true /\ (create_time (prim b) =? 0) = false /\ (lifetime (prim b) =? 0) = false /\
    recv_crc_ok b = true /\
    decode_bundle (encode_bundle (do_fwd node now b)) = Some w /\ dest (prim w) <> dest (prim b).
Proof.
  pose proof (guards_at _ _ _ _ 2 wit_eid _ witnesses_guards eq_refl eq_refl) as G.
  exists ex_node, ex_now, wit_eid, (do_fwd ex_node ex_now wit_eid).
  split; [exact (g_in G)|]. split; [exact (g_time G)|]. split; [exact (g_life G)|].
  split; [exact (g_crc G)|]. split; [exact (c11_wire _ _ _ (g_in G))|].
  lazy. (* reads the fields through [set_crc]; [vm_compute] would evaluate every CRC first *) discriminate.
Qed.

Lemma admin_refutes :
  exists (node : eid) (now : N) (b w : bundle),
    fwd_inb node now b = true /\ recv_crc_ok b = true /\
    decode_bundle (encode_bundle (do_fwd node now b)) = Some w /\
    map btsd (filter (fun x => btype x =? 1) (blocks w)) <> map btsd (filter (fun x => btype x =? 1) (blocks b)).
Proof.
  pose proof (guards_at _ _ _ _ 3 wit_admin _ witnesses_guards eq_refl eq_refl) as G.
  exists ex_node, ex_now, wit_admin, (do_fwd ex_node ex_now wit_admin).
  split; [exact (g_in G)|]. split; [exact (g_crc G)|].
  split; [exact (c11_wire _ _ _ (g_in G))|].
  lazy. (* reads the fields through [set_crc]; [vm_compute] would evaluate every CRC first *) discriminate.
Qed.

Lemma prevjunk_refutes :
  exists (node : eid) (now : N) (b w : bundle),
    fwd_inb node now b = true /\
    decode_bundle (encode_bundle (do_fwd node now b)) = Some w /\
    length (filter (fun x => btype x =? 6) (blocks w)) = 2%nat.
Proof.
  pose proof (g_in (guards_at _ _ _ _ 4 wit_prevjunk _ witnesses_guards eq_refl eq_refl)) as G.
  exists ex_node, ex_now, wit_prevjunk, (do_fwd ex_node ex_now wit_prevjunk).
  split; [exact G|]. split; [exact (c11_wire _ _ _ G)|]. reflexivity.
Qed.

Lemma agejunk_refutes :
  exists (node : eid) (now : N) (b w : bundle),
    fwd_inb node now b = true /\
    decode_bundle (encode_bundle (do_fwd node now b)) = Some w /\
    length (filter (fun x => btype x =? 7) (blocks w)) = 2%nat.
Proof.
  pose proof (g_in (guards_at _ _ _ _ 5 wit_agejunk _ witnesses_guards eq_refl eq_refl)) as G.
  exists ex_node, ex_now, wit_agejunk, (do_fwd ex_node ex_now wit_agejunk).
  split; [exact G|]. split; [exact (c11_wire _ _ _ G)|]. reflexivity.
Qed.

Lemma future_refutes :
  exists (node : eid) (now : N) (b w : bundle) (blk : cblock),
    fwd_inb node now b = true /\ age_parseb b = true /\ now < create_time (prim b) /\
    decode_bundle (encode_bundle (do_fwd node now b)) = Some w /\
    filter (fun x => btype x =? 7) (blocks w) = [blk] /\
    decode_bundle_age (btsd blk) = None /\                                    (* not an unsigned integer *)
    btsd blk = encode (CNint (create_time (prim b) - now - 1)).             (* the integer now - creation < 0 *)
Proof.
  pose proof (guards_at _ _ _ _ 6 wit_future _ witnesses_guards eq_refl eq_refl) as G.
  exists ex_node, ex_now, wit_future, (do_fwd ex_node ex_now wit_future). eexists.
  split; [exact (g_in G)|]. split; [exact (g_age G)|]. split; [reflexivity|].
  split; [exact (c11_wire _ _ _ (g_in G))|].
  split; [lazy; reflexivity|]. (* [lazy] as above *) split; reflexivity.
Qed.

Lemma paypos_example :
  fwd_inb ex_node ex_now wit_paypos = true /\ payload_last_num1b (blocks wit_paypos) = false /\
  exists w, wire ex_node ex_now wit_paypos = Some w /\ payload_last_num1b (blocks w) = false /\
            map btype (blocks w) = [1; 6; 7; 192].
Proof.
  pose proof (guards_at _ _ _ _ 7 wit_paypos _ witnesses_guards eq_refl eq_refl) as G.
  split; [exact (g_in G)|]. split; [exact (g_last G)|].
  exists (do_fwd ex_node ex_now wit_paypos). split; [exact (c11_wire _ _ _ (g_in G))|]. split; reflexivity.
Qed.
