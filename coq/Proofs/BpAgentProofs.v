(** The agent of Model/BpAgent.v (properties C10, C19).  One call of [recv_bundle] is taken apart once
    ([recv_core_cases]); what it delivers and transmits is a function of the bundle's [disposition]
    ([recv_core_disposition]).  [finish], [do_fwd] and [final] are each a [stage]: that is where the frame, the
    subject of the events and their numbers come from; where a status report among the events comes from is
    [final_report].  At most one processing per identity is [once]. *)
From Coq Require Import String ZArith NArith List Bool Lia.
From DTN Require Import Gen.ReportTable Gen.RecvTail Gen.Chain Model.BpAgent.
Import ListNotations.
Local Open Scope N_scope.

Lemma frag_eqb_eq x y : frag_eqb x y = true <-> x = y.
Proof.
  destruct x as [[a b]|], y as [[c d]|]; cbn; try (split; intros H; (discriminate || reflexivity)).
  rewrite andb_true_iff, !N.eqb_eq. split; [intros [-> ->]; reflexivity|intros [= -> ->]; auto].
Qed.

Lemma ident_eqb_eq (i j : ident) : ident_eqb i j = true <-> i = j.
Proof.
  destruct i as [[[s1 t1] q1] f1], j as [[[s2 t2] q2] f2]. cbn. rewrite !andb_true_iff, !N.eqb_eq, frag_eqb_eq.
  split; [intros [[[-> ->] ->] ->]; reflexivity|intros [= -> -> -> ->]; auto].
Qed.

Lemma ident_inj (b1 b2 : bundle) :
  ident_eqb (ident_of b1) (ident_of b2) = true
  <-> b_src b1 = b_src b2 /\ b_time b1 = b_time b2 /\ b_seq b1 = b_seq b2 /\ b_frag b1 = b_frag b2.
Proof.
  rewrite ident_eqb_eq. unfold ident_of. split.
  - intros H. inversion H. auto.
  - intros (H1 & H2 & H3 & H4). rewrite H1, H2, H3, H4. reflexivity.
Qed.

(* for equations between records with a computed field: [injection] at the place of use would evaluate the field *)
Lemma some_inj {A} (x y : A) : Some x = Some y -> x = y.
Proof. intros [= H]. exact H. Qed.

Lemma existsb_eqb_In {A} (eqb : A -> A -> bool) (x : A) l :
  (forall y, eqb x y = true <-> x = y) -> (existsb (eqb x) l = true <-> In x l).
Proof.
  intros Heq. rewrite existsb_exists. split.
  - intros [y [Hy He]]. apply Heq in He. subst. exact Hy.
  - intros H. exists x. split; [exact H | apply Heq; reflexivity].
Qed.

Lemma existsb_ext {A} (f g : A -> bool) l : (forall x, f x = g x) -> existsb f l = existsb g l.
Proof. intros H. induction l as [|y l IH]; cbn; [reflexivity|]. rewrite H, IH. reflexivity. Qed.

Lemma seen_existsb_In i l : existsb (ident_eqb i) l = true <-> In i l.
Proof. apply existsb_eqb_In. intros j. apply ident_eqb_eq. Qed.

Lemma action_eqb_eq x y : action_eqb x y = true <-> x = y.
Proof. destruct x, y; cbn; split; intros H; try discriminate; reflexivity. Qed.

Lemma mem_In x l : mem x l = true <-> In x l.
Proof. apply existsb_eqb_In. intros y. apply action_eqb_eq. Qed.

Lemma mem_add x y l : mem x (add y l) = mem x l || action_eqb x y.
Proof.
  unfold add. destruct (mem y l) eqn:E.
  - destruct (action_eqb x y) eqn:F; [|rewrite orb_false_r; reflexivity].
    apply action_eqb_eq in F. subst. rewrite E. reflexivity.
  - unfold mem. rewrite existsb_app. cbn. rewrite orb_false_r. reflexivity.
Qed.

Lemma mem_filter x p l : mem x (filter p l) = mem x l && p x.
Proof.
  unfold mem. induction l as [|y l IH]; cbn; [reflexivity|].
  destruct (p y) eqn:Py; cbn; rewrite IH; destruct (action_eqb x y) eqn:E; cbn; try reflexivity;
    apply action_eqb_eq in E; subst; rewrite Py, ?andb_false_r; reflexivity.
Qed.

Lemma mem_remove x y l : mem x (remove y l) = mem x l && negb (action_eqb y x).
Proof. apply mem_filter. Qed.

Lemma filter_nonempty_iff (p : action -> bool) l : filter p l <> [] <-> exists s, In s l /\ p s = true.
Proof.
  split.
  - intros H. destruct (filter p l) as [|x t] eqn:E; [contradiction|].
    assert (Hx : In x (filter p l)) by (rewrite E; left; reflexivity).
    apply filter_In in Hx. exists x. exact Hx.
  - intros [s [Hin Hp]] E. assert (Hx : In s (filter p l)) by (apply filter_In; auto).
    rewrite E in Hx. destruct Hx.
Qed.

Lemma seen_tick a : a_seen (tick a) = a_seen a. Proof. reflexivity. Qed.
Lemma node_tick a : a_node (tick a) = a_node a. Proof. reflexivity. Qed.
Lemma tx_tick a : a_tx (tick a) = a_tx a. Proof. reflexivity. Qed.

Section WithMatch.
  Variable matches : N -> eid -> bool.

  Notation recv_core := (recv_core matches).
  Notation recv := (recv matches).
  Notation run := (run matches).
  Notation finish := (finish matches).
  Notation do_fwd := (do_fwd matches).
  Notation fwd_plan := (fwd_plan matches).
  Notation final := (final matches).
  Notation send_path := (send_path matches).
  Notation route_actions := (route_actions matches).
  Notation rx_lookup := (rx_lookup matches).
  Notation send_report_path := (send_report_path matches).

  (** [a'] has the seen list, node id, transmit routes and reassembly state of [a]: what [finish], [fwd_plan],
      [do_fwd] and [final] leave alone (they advance [a_tsn]) and what the lemmas about them compare *)
  Definition frame (a a' : agent) : Prop :=
    a_seen a' = a_seen a /\ a_node a' = a_node a /\ a_tx a' = a_tx a /\ a_reasm a' = a_reasm a.

  Lemma frame_refl a : frame a a.
  Proof. repeat split. Qed.
  Lemma frame_trans a a1 a2 : frame a a1 -> frame a1 a2 -> frame a a2.
  Proof. unfold frame. intros (H1 & H2 & H3 & H4) (G1 & G2 & G3 & G4). repeat split; congruence. Qed.
  Lemma frame_tick a : frame a (tick a).
  Proof. repeat split. Qed.

  Lemma frame_node a a' : frame a a' -> a_node a' = a_node a.
  Proof. intros H. apply H. Qed.
  Lemma frame_tx a a' : frame a a' -> a_tx a' = a_tx a.
  Proof. intros H. apply H. Qed.

  (** a status report was built and handed to [send_bundle]; it counts also when that call fails, unlike in
      the model's [reports_of], which lists the reports that reached a convergence layer *)
  Definition is_report_ev (e : event) : bool :=
    match e with EvReport _ _ _ => true | EvReportFrags _ _ _ => true | EvSendFail _ true => true | _ => false end.
  Definition count (p : event -> bool) (evs : list event) : nat := length (filter p evs).
  Definition is_deliver_ev (e : event) : bool := match e with EvDeliver _ => true | _ => false end.
  Definition is_tx_ev (e : event) : bool := match e with EvTx _ _ _ | EvFrags _ _ _ => true | _ => false end.

  (** the one event of a finished bundle whose report was built *)
  Definition report_ev (a : agent) (sub : bundle) (r : report) : event :=
    match send_report_path a (r_dst r) with
    | SentWhole k => EvReport sub r k
    | SentFrags k true => EvReportFrags sub r k
    | _ => EvSendFail sub true
    end.

  Lemma finish_eq a sub cur acts rsn :
    finish a sub cur acts rsn =
    match create_report (a_node a) (a_now a, a_tsn a) cur acts rsn with
    | None => (a, [])
    | Some r => (tick a, [report_ev a sub r])
    end.
  Proof.
    unfold BpAgent.finish, report_ev.
    destruct (create_report (a_node a) (a_now a, a_tsn a) cur acts rsn) as [r|]; [|reflexivity].
    change (send_report_path (tick a) (r_dst r)) with (send_report_path a (r_dst r)).
    destruct (send_report_path a (r_dst r)) as [k|k [|]|]; reflexivity.
  Qed.

  (** what every observer makes of [report_ev] *)
  Lemma report_ev_spec a sub r :
    let e := report_ev a sub r in
    ev_subject e = sub /\ is_report_ev e = true /\ is_deliver_ev e = false /\ is_tx_ev e = false
    /\ (forall r', In r' (reports_of [e]) -> r' = r)
    /\ (forall s r' k, e = EvReport s r' k -> send_report_path a (r_dst r') = SentWhole k).
  Proof.
    unfold report_ev. destruct (send_report_path a (r_dst r)) as [k|k [|]|] eqn:E; cbn;
      repeat split; try tauto; try discriminate; try (intros r' [<-|[]]; reflexivity).
    intros s r' k' [= _ <- <-]. exact E.
  Qed.

  Lemma finish_report_of a sub cur acts rsn r :
    In r (reports_of (snd (finish a sub cur acts rsn))) ->
    create_report (a_node a) (a_now a, a_tsn a) cur acts rsn = Some r.
  Proof.
    rewrite finish_eq. destruct (create_report _ _ cur acts rsn) as [r0|]; cbn [snd]; [|intros []].
    intros H. apply (report_ev_spec a sub r0) in H. congruence.
  Qed.

  Lemma finish_report_route a sub cur acts rsn sub' r k :
    In (EvReport sub' r k) (snd (finish a sub cur acts rsn)) -> send_report_path a (r_dst r) = SentWhole k.
  Proof.
    rewrite finish_eq. destruct (create_report _ _ cur acts rsn) as [r0|]; cbn [snd]; [|intros []].
    intros [E|[]]. eapply (report_ev_spec a sub r0). exact E.
  Qed.

  Lemma reports_of_app x y : reports_of (x ++ y) = reports_of x ++ reports_of y.
  Proof. apply flat_map_app. Qed.

  Lemma count_app p x y : count p (x ++ y) = (count p x + count p y)%nat.
  Proof. unfold count. rewrite filter_app, app_length. reflexivity. Qed.

  Lemma existsb_count p evs : existsb p evs = negb (count p evs =? 0)%nat.
  Proof.
    unfold count. induction evs as [|e l IH]; cbn; [reflexivity|]. destruct (p e); [reflexivity|exact IH].
  Qed.

  Lemma reports_count evs : (length (reports_of evs) <= count is_report_ev evs)%nat.
  Proof.
    unfold count. induction evs as [|e l IH]; [apply le_n|].
    destruct e as [| | | | |? []]; cbn [reports_of flat_map filter is_report_ev app length]; fold (reports_of l); lia.
  Qed.

  Definition b2n (x : bool) : nat := if x then 1%nat else 0%nat.

  (** One step of the agent for the bundle [b], from an agent with the frame of [a0] to the agent and the events
      [res]: the frame is kept, the events are about [b], and among them are at most [n] status reports built,
      [d] delivery callbacks and [t] hand-overs of the bundle to a convergence layer. *)
  Record stage (a0 : agent) (b : bundle) (res : agent * list event) (n d t : nat) : Prop := mkStage {
    st_frame : frame a0 (fst res);
    st_subject : forall e, In e (snd res) -> ev_subject e = b;
    st_report : (count is_report_ev (snd res) <= n)%nat;
    st_deliver : count is_deliver_ev (snd res) = d;
    st_tx : count is_tx_ev (snd res) = t
  }.
  Arguments st_frame {a0 b res n d t}.
  Arguments st_subject {a0 b res n d t}.
  Arguments st_report {a0 b res n d t}.
  Arguments st_deliver {a0 b res n d t}.
  Arguments st_tx {a0 b res n d t}.

  Lemma stage_skip a0 a b n : frame a0 a -> stage a0 b (a, []) n 0 0.
  Proof. intros H. constructor; cbn; try reflexivity; [exact H|intros e []|lia]. Qed.

  Lemma stage_one a0 a b e :
    frame a0 a -> ev_subject e = b ->
    stage a0 b (a, [e]) (b2n (is_report_ev e)) (b2n (is_deliver_ev e)) (b2n (is_tx_ev e)).
  Proof.
    intros H Hs. constructor; unfold count; cbn [fst snd filter]; [exact H|intros e' [<-|[]]; exact Hs|..].
    - destruct (is_report_ev e); apply le_n.
    - destruct (is_deliver_ev e); reflexivity.
    - destruct (is_tx_ev e); reflexivity.
  Qed.

  Lemma stage_eq a0 b res n d t n' d' t' :
    stage a0 b res n d t -> (n <= n')%nat -> d = d' -> t = t' -> stage a0 b res n' d' t'.
  Proof. intros [F S R D T] H <- <-. constructor; try assumption. lia. Qed.

  Definition seq_ev (x : agent * list event) (f : agent -> agent * list event) : agent * list event :=
    (fst (f (fst x)), snd x ++ snd (f (fst x))).

  Lemma stage_seq a0 b x f n1 d1 t1 n2 d2 t2 :
    stage a0 b x n1 d1 t1 -> (forall a, frame a0 a -> stage a0 b (f a) n2 d2 t2) ->
    stage a0 b (seq_ev x f) (n1 + n2) (d1 + d2) (t1 + t2).
  Proof.
    intros [F1 S1 R1 D1 T1] H. destruct (H _ F1) as [F2 S2 R2 D2 T2]. unfold seq_ev.
    constructor; cbn [fst snd]; rewrite ?count_app; try lia; [exact F2|].
    intros e He. apply in_app_or in He as [He|He]; auto.
  Qed.

  Lemma finish_stage a0 a sub cur acts rsn : frame a0 a -> stage a0 sub (finish a sub cur acts rsn) 1 0 0.
  Proof.
    intros Hf. rewrite finish_eq. destruct (create_report _ _ cur acts rsn) as [r|]; [|apply stage_skip, Hf].
    destruct (report_ev_spec a sub r) as (Hs & Hr & Hd & Ht & _).
    pose proof (stage_one a0 (tick a) sub _ (frame_trans _ _ _ Hf (frame_tick a)) Hs) as H.
    rewrite Hr, Hd, Ht in H. exact H.
  Qed.

  (** [send_bundle] of a data bundle [b] *)
  Definition bundle_path (a : agent) (b : bundle) : sendres :=
    send_path a (b_dst b) (b_size b) (has_flag (b_flags b) FLAG_NO_FRAGMENT) (is_frag b) (b_fragfeas b).

  (** did it reach a convergence layer? *)
  Definition tx_ok (a : agent) (b : bundle) : bool :=
    match send_path a (b_dst b) (b_size b) (has_flag (b_flags b) FLAG_NO_FRAGMENT) (is_frag b) (b_fragfeas b) with
    | SentWhole _ => true
    | SentFrags _ cl => cl
    | SendRaise => false
    end.

  Lemma bundle_path_tx a a' b : a_tx a' = a_tx a -> bundle_path a' b = bundle_path a b.
  Proof. intros H. unfold bundle_path, BpAgent.send_path. rewrite H. reflexivity. Qed.

  Lemma tx_ok_eq a b :
    tx_ok a b = match bundle_path a b with SentWhole _ => true | SentFrags _ cl => cl | SendRaise => false end.
  Proof. reflexivity. Qed.

  Lemma tx_ok_tx a a' b : a_tx a' = a_tx a -> tx_ok a' b = tx_ok a b.
  Proof. intros H. rewrite !tx_ok_eq, (bundle_path_tx a a' b H). reflexivity. Qed.

  (** [cur] is [b] as [send_bundle] hands it on: [_apply_primary] gives a bundle that came without a creation time
      stamp one of its own and changes nothing else *)
  Definition stamped (b cur : bundle) : Prop :=
    b_src cur = b_src b /\ b_rpt cur = b_rpt b /\ b_flags cur = b_flags b /\ (b_time b <> 0 -> cur = b).

  Lemma stamped_refl b : stamped b b.
  Proof. repeat split. Qed.

  (** Everything [fwd_plan a b acts rsn] can return (agent, bundle as sent, action record, reason, events so
      far), [a] being [a0] up to the frame. *)
  Record plan_spec (a0 : agent) (b : bundle) (acts : list action) (rsn : option N)
         (a2 : agent) (cur : bundle) (acts' : list action) (rsn' : option N) (pre : list event) : Prop := mkPlanSpec {
    ps_stage : stage a0 b (a2, pre) 0 0 (b2n (negb (prep_fails b) && tx_ok a0 b));
    ps_cur : stamped b cur;
    ps_case :
      (* send_bundle returned: 'forward' recorded *)
      (prep_fails b = false /\ acts' = add AFwd acts /\ rsn' = rsn
       /\ (tx_ok a0 b = true
           \/ exists k, bundle_path a0 b = SentFrags k false))
      \/ (* an exception: 'forward' withdrawn, 'delete' / NO_ROUTE recorded, nothing reached a CL *)
      (acts' = add ADel (remove AFwd acts) /\ rsn' = Some fwd_fail_reason
       /\ negb (prep_fails b) && tx_ok a0 b = false)
  }.
  Arguments ps_stage {a0 b acts rsn a2 cur acts' rsn' pre}.
  Arguments ps_cur {a0 b acts rsn a2 cur acts' rsn' pre}.
  Arguments ps_case {a0 b acts rsn a2 cur acts' rsn' pre}.

  Lemma plan_spec_fail a0 b acts rsn a1 :
    prep_fails b = true -> frame a0 a1 ->
    plan_spec a0 b acts rsn a1 b (add ADel (remove AFwd acts)) (Some fwd_fail_reason) [].
  Proof.
    intros Hp Hf. constructor; rewrite ?Hp.
    - apply stage_skip, Hf.
    - apply stamped_refl.
    - right. repeat split.
  Qed.

  (** [send_bundle] of the forwarded bundle [b'], from [a2], which is [a0] after the calls of [Agent.timestamp]
      made on the way *)
  Lemma plan_spec_send a0 b acts rsn a2 b' :
    prep_fails b = false -> frame a0 a2 -> stamped b b' -> bundle_path a2 b' = bundle_path a0 b ->
    let '(a3, cur, acts', rsn', pre) :=
      match bundle_path a2 b' with
      | SentWhole k => (a2, b', add AFwd acts, rsn, [EvTx b b' k])
      | SentFrags k cl => (a2, b', add AFwd acts, rsn, [if cl then EvFrags b b' k else EvSendFail b false])
      | SendRaise => (a2, b', add ADel (remove AFwd acts), Some fwd_fail_reason, [EvSendFail b false])
      end in
    plan_spec a0 b acts rsn a3 cur acts' rsn' pre.
  Proof.
    intros Hp Hf Hb ->. pose proof (tx_ok_eq a0 b) as Ht.
    destruct (bundle_path a0 b) as [k|k [|]|] eqn:S;
      constructor; rewrite ?Hp, ?Ht;
      try exact Hb; try (apply (stage_one a0 a2 b); [exact Hf|reflexivity]).
    - left. repeat split. left. reflexivity.
    - left. repeat split. left. reflexivity.
    - left. repeat split. right. exists k. exact S.
    - right. repeat split.
  Qed.

  Lemma fwd_plan_spec a0 a b acts rsn :
    frame a0 a -> let '(a2, cur, acts', rsn', pre) := fwd_plan a b acts rsn in plan_spec a0 b acts rsn a2 cur acts' rsn' pre.
  Proof.
    intros Hf. pose proof (frame_trans _ _ _ Hf (frame_tick a)) as Hf1.
    pose proof (bundle_path_tx a0 a b (frame_tx _ _ Hf)) as Eb.
    unfold BpAgent.fwd_plan.
    (* [Hp] records [prep_fails b] as the two tests of [b_prep b] that are destructed below *)
    pose proof (eq_refl (prep_fails b)) as Hp. unfold prep_fails at 2 in Hp.
    destruct (b_prep b =? 1); [apply plan_spec_fail; [exact Hp|exact Hf]|].
    destruct (b_time b =? 0) eqn:T0; cbn [negb andb orb] in *.
    - (* creation time zero: no age block, timestamp rewritten *)
      apply plan_spec_send; [exact Hp|exact Hf1| |exact Eb].
      repeat split. intros H. apply N.eqb_eq in T0. contradiction.
    - (* creation time known: bundle age block added *)
      destruct (b_prep b =? 2); [apply plan_spec_fail; [exact Hp|exact Hf1]|].
      apply plan_spec_send; [exact Hp|exact Hf1|apply stamped_refl|exact Eb].
  Qed.

  Lemma do_fwd_cases a0 a b acts rsn :
    frame a0 a ->
    exists a2 cur acts' rsn' pre,
      plan_spec a0 b acts rsn a2 cur acts' rsn' pre
      /\ do_fwd a b acts rsn = seq_ev (a2, pre) (fun _ => finish a2 b cur acts' rsn').
  Proof.
    intros Hf. pose proof (fwd_plan_spec a0 a b acts rsn Hf) as Hs. unfold BpAgent.do_fwd, seq_ev.
    destruct (fwd_plan a b acts rsn) as [[[[a2 cur] acts'] rsn'] pre]. exists a2, cur, acts', rsn', pre.
    split; [exact Hs|]. cbn [fst snd]. destruct (finish a2 b cur acts' rsn'). reflexivity.
  Qed.

  Lemma do_fwd_stage a0 a b acts rsn :
    frame a0 a -> stage a0 b (do_fwd a b acts rsn) 1 0 (b2n (negb (prep_fails b) && tx_ok a0 b)).
  Proof.
    intros Hf. destruct (do_fwd_cases a0 a b acts rsn Hf) as (a2 & cur & acts' & rsn' & pre & Hs & ->).
    eapply stage_eq; [eapply stage_seq; [apply (ps_stage Hs)|intros _ _; apply finish_stage, (st_frame (ps_stage Hs))]|lia..].
  Qed.

  Lemma do_fwd_node a b acts rsn : a_node (fst (do_fwd a b acts rsn)) = a_node a.
  Proof. apply frame_node, (st_frame (do_fwd_stage a a b acts rsn (frame_refl a))). Qed.

  Lemma final_eq a b acts rsn c :
    final a b acts rsn c =
    seq_ev (a, if c then [EvDeliver b] else [])
      (fun a => if mem ADel acts then finish a b b acts rsn
                else seq_ev (if mem ADlv acts then finish a b b acts rsn else (a, []))
                            (fun a1 => if mem AFwd acts then do_fwd a1 b acts rsn else (a1, []))).
  Proof.
    (* [tail_delete_returns] comes from the source: the delete branch of recv_bundle returns *)
    unfold BpAgent.final, Gen.RecvTail.tail_delete_returns, seq_ev. destruct (mem ADel acts); cbn [andb fst snd].
    - destruct (finish a b b acts rsn). reflexivity.
    - cbn [app]. destruct (mem ADlv acts); [destruct (finish a b b acts rsn) as [a1 ev1]|]; cbn [fst snd];
        (destruct (mem AFwd acts); [destruct (do_fwd _ b acts rsn)|]); reflexivity.
  Qed.

  Lemma final_stage a b acts rsn c :
    stage a b (final a b acts rsn c) (if mem ADel acts then 1 else b2n (mem ADlv acts) + b2n (mem AFwd acts)) (b2n c)
          (b2n (negb (mem ADel acts) && mem AFwd acts && negb (prep_fails b) && tx_ok a b)).
  Proof.
    assert (H0 : stage a b (a, if c then [EvDeliver b] else []) 0 (b2n c) 0).
    { destruct c; [apply (stage_one a a b (EvDeliver b)); [apply frame_refl|reflexivity]|apply stage_skip, frame_refl]. }
    rewrite final_eq. destruct (mem ADel acts); cbn [negb andb b2n].
    - eapply stage_eq; [eapply stage_seq; [exact H0|intros a0 F0; apply finish_stage, F0]|lia..].
    - eapply stage_eq;
        [eapply stage_seq; [exact H0|]; intros a0 F0;
         apply (stage_seq a b _ _ (b2n (mem ADlv acts)) 0 0 (b2n (mem AFwd acts)) 0
                          (b2n (mem AFwd acts && negb (prep_fails b) && tx_ok a b)))|lia..].
      + destruct (mem ADlv acts); [apply finish_stage|apply stage_skip]; exact F0.
      + intros a1 F1. destruct (mem AFwd acts); [apply do_fwd_stage|apply stage_skip]; exact F1.
  Qed.

  Lemma final_frame a b acts rsn c : frame a (fst (final a b acts rsn c)).
  Proof. apply (st_frame (final_stage a b acts rsn c)). Qed.

  Lemma final_has_deliver a b acts rsn c : has_deliver (snd (final a b acts rsn c)) = c.
  Proof. unfold has_deliver. rewrite (existsb_count is_deliver_ev), (st_deliver (final_stage a b acts rsn c)). destruct c; reflexivity. Qed.

  Lemma final_has_tx a b acts rsn c :
    has_tx (snd (final a b acts rsn c)) = negb (mem ADel acts) && mem AFwd acts && negb (prep_fails b) && tx_ok a b.
  Proof. unfold has_tx. rewrite (existsb_count is_tx_ev), (st_tx (final_stage a b acts rsn c)). destruct (_ && _); reflexivity. Qed.

  (** The action record and the reason that a report among the events of [final] was built from.  [htx] stands
      for [has_tx] of all the events of [final] and matters in the forwarding cases only. *)
  Inductive finished (a : agent) (b : bundle) (acts : list action) (rsn : option N) (htx : bool)
    : list action -> option N -> Prop :=
  | FinSelf : mem ADel acts = true \/ mem ADlv acts = true -> finished a b acts rsn htx acts rsn
  | FinForwarded :
      mem ADel acts = false -> mem AFwd acts = true ->
      htx = true \/ (exists k, bundle_path a b = SentFrags k false) ->
      finished a b acts rsn htx (add AFwd acts) rsn
  | FinForwardFailed :
      mem ADel acts = false -> mem AFwd acts = true -> htx = false ->
      finished a b acts rsn htx (add ADel (remove AFwd acts)) (Some fwd_fail_reason).

  (** Where a report among the events of [final] comes from: [create_report] on the record that [finish] was
      given, for the bundle [cur] as stamped by then.  [ts] is the report's own time stamp, which no user
      looks at. *)
  Lemma final_report a b acts rsn c r :
    In r (reports_of (snd (final a b acts rsn c))) ->
    exists ts cur acts' rsn',
      create_report (a_node a) ts cur acts' rsn' = Some r /\ stamped b cur
      /\ finished a b acts rsn (has_tx (snd (final a b acts rsn c))) acts' rsn'.
  Proof.
    rewrite final_has_tx, final_eq. unfold seq_ev. cbn [fst snd].
    assert (H0 : reports_of (if c then [EvDeliver b] else []) = []) by (destruct c; reflexivity).
    rewrite reports_of_app, H0. cbn [app].
    assert (Hself : forall htx, In r (reports_of (snd (finish a b b acts rsn))) -> mem ADel acts = true \/ mem ADlv acts = true ->
                    exists ts cur acts' rsn', create_report (a_node a) ts cur acts' rsn' = Some r /\ stamped b cur
                                              /\ finished a b acts rsn htx acts' rsn').
    { intros htx H Hm. apply finish_report_of in H. eexists _, b, acts, rsn. split; [exact H|].
      split; [apply stamped_refl|apply FinSelf, Hm]. }
    destruct (mem ADel acts) eqn:Hdel; cbn [negb andb snd]; [intros H; apply Hself; auto|]. rewrite reports_of_app. intros H.
    apply in_app_or in H as [H|H].
    - destruct (mem ADlv acts); [apply Hself; auto|destruct H].
    - destruct (mem AFwd acts) eqn:Hfwd; [|destruct H].
      assert (Hf : frame a (fst (if mem ADlv acts then finish a b b acts rsn else (a, []))))
        by (destruct (mem ADlv acts); [apply (st_frame (finish_stage a a b b acts rsn (frame_refl a)))|apply frame_refl]).
      destruct (do_fwd_cases a _ b acts rsn Hf) as (a2 & cur & acts' & rsn' & pre & Hs & E).
      rewrite E in H. unfold seq_ev in H. cbn [fst snd] in H.
      pose proof (reports_count pre) as L. pose proof (st_report (ps_stage Hs)) as L'. cbn [snd] in L'.
      rewrite reports_of_app in H. destruct (reports_of pre); [|cbn [length] in L; lia].
      apply finish_report_of in H. rewrite (frame_node a a2 (st_frame (ps_stage Hs))) in H.
      eexists _, _, _, _. split; [exact H|]. split; [apply Hs|].
      cbn [andb]. destruct (ps_case Hs) as [(Hp & -> & -> & Hok)|(-> & -> & Hx)]; rewrite ?Hp, ?Hx; cbn [negb andb].
      + apply FinForwarded; auto.
      + apply FinForwardFailed; auto.
  Qed.

  Lemma recv_core_rejected a b : accepted a b = false -> recv_core a b = (a, [], None).
  Proof. intros H. unfold BpAgent.recv_core. rewrite H. reflexivity. Qed.

  Definition seen_add (a : agent) (b : bundle) : agent := set_seen a (a_seen a ++ [ident_of b]).

  (** The action record when the RX chain has run to its end (no reassembly). *)
  Definition chain_acts (a : agent) (b : bundle) : list action :=
    app_step a b (fst (sec_step b (route_actions a b))).

  (** The outcomes of [recv_core a b]: rejected by a gate; a fragment taken by reassembly (no event; [re] is
      the reassembled bundle, if complete); processed to the end by [final] from an agent [a'] that has
      noted the identity, either after the reassembly step found nothing to start from or after the whole
      RX chain. *)
  Inductive recv_core_spec (a : agent) (b : bundle) : agent * list event * option bundle -> Prop :=
  | RcRejected : accepted a b = false -> recv_core_spec a b (a, [], None)
  | RcReasmTaken a' re :
      accepted a b = true -> a_seen a' = a_seen a ++ [ident_of b] ->
      mem ADlv (route_actions a b) && is_frag b = true -> recv_core_spec a b (a', [], re)
  | RcReasmGlitch a' :
      accepted a b = true ->
      a_seen a' = a_seen a ++ [ident_of b] -> a_node a' = a_node a -> a_tx a' = a_tx a ->
      mem ADlv (route_actions a b) && is_frag b = true ->
      recv_core_spec a b (fst (final a' b (route_actions a b) None false),
                          snd (final a' b (route_actions a b) None false), None)
  | RcChain :
      accepted a b = true -> mem ADlv (route_actions a b) && is_frag b = false ->
      recv_core_spec a b
        (fst (final (seen_add a b) b (chain_acts a b) (snd (sec_step b (route_actions a b)))
                    (mem ADlv (fst (sec_step b (route_actions a b))))),
         snd (final (seen_add a b) b (chain_acts a b) (snd (sec_step b (route_actions a b)))
                    (mem ADlv (fst (sec_step b (route_actions a b))))),
         None).

  Lemma recv_core_cases a b : recv_core_spec a b (recv_core a b).
  Proof.
    destruct (accepted a b) eqn:H; [|rewrite recv_core_rejected by exact H; constructor; exact H].
    unfold BpAgent.recv_core. rewrite H. cbn [negb].
    change (BpAgent.route_actions matches (set_seen a (a_seen a ++ [ident_of b])) b) with (route_actions a b).
    change (a_reasm (set_seen a (a_seen a ++ [ident_of b]))) with (a_reasm a).
    change (app_step (set_seen a (a_seen a ++ [ident_of b])) b) with (app_step a b).
    fold (chain_acts a b). fold (seen_add a b).
    destruct (mem ADlv (route_actions a b) && is_frag b) eqn:C.
    - destruct (reasm_step (a_reasm a) b) as [rs res].
      destruct res; try (apply RcReasmTaken; [exact H|reflexivity|exact C]).
      (* the model binds the two components of [final ..]: write it as the pair of its projections *)
      rewrite (surjective_pairing (final (set_reasm (seen_add a b) rs) b (route_actions a b) None false)).
      apply RcReasmGlitch; auto.
    - rewrite (surjective_pairing (final (seen_add a b) b (chain_acts a b) (snd (sec_step b (route_actions a b)))
                                         (mem ADlv (fst (sec_step b (route_actions a b)))))).
      apply RcChain; assumption.
  Qed.

  Lemma recv_core_seen a b :
    a_seen (fst (fst (recv_core a b))) = if accepted a b then a_seen a ++ [ident_of b] else a_seen a.
  Proof.
    destruct (recv_core_cases a b) as [-> | a' re -> Hs _ | a' -> Hs _ _ _ | -> _]; cbn [fst];
      rewrite ?(proj1 (final_frame _ _ _ _ _)); auto.
  Qed.

  Lemma recv_core_subject a b e : In e (snd (fst (recv_core a b))) -> ev_subject e = b.
  Proof. destruct (recv_core_cases a b); cbn [fst snd]; try (intros []); apply (st_subject (final_stage _ _ _ _ _)). Qed.

  Lemma seen_not_accepted a b : In (ident_of b) (a_seen a) -> accepted a b = false.
  Proof.
    intros H. unfold accepted. apply seen_existsb_In in H. rewrite H. cbn. rewrite andb_false_r. reflexivity.
  Qed.

  (** the model's [acts_on] counts a processing as acting on an identity when it has events *)
  Definition nonsilent (p : proc) : bool := negb (match snd p with [] => true | _ => false end).

  Lemma acts_on_one i p : acts_on i [p] = if ident_eqb (ident_of (fst p)) i && nonsilent p then [p] else [].
  Proof. reflexivity. Qed.

  Lemma acts_on_app i x y : acts_on i (x ++ y) = acts_on i x ++ acts_on i y.
  Proof. unfold acts_on. apply filter_app. Qed.

  Lemma recv_eq a b :
    recv a b =
    match snd (recv_core a b) with
    | None => (fst (fst (recv_core a b)), [(b, snd (fst (recv_core a b)))])
    | Some rb =>
      (fst (fst (recv_core (fst (fst (recv_core a b))) rb)),
       [(b, snd (fst (recv_core a b))); (rb, snd (fst (recv_core (fst (fst (recv_core a b))) rb)))])
    end.
  Proof.
    unfold BpAgent.recv. destruct (recv_core a b) as [[a1 ev1] re]. cbn [fst snd].
    destruct re as [rb|]; [|reflexivity].
    destruct (recv_core a1 rb) as [[a2 ev2] re2]. reflexivity.
  Qed.

  Lemma recv_core_acted a b :
    snd (fst (recv_core a b)) <> [] -> ~ In (ident_of b) (a_seen a) /\ In (ident_of b) (a_seen (fst (fst (recv_core a b)))).
  Proof.
    intros H. destruct (accepted a b) eqn:Hacc.
    - split.
      + intros Hin. apply seen_not_accepted in Hin. congruence.
      + rewrite recv_core_seen, Hacc. apply in_or_app. right. left. reflexivity.
    - exfalso. apply H. rewrite recv_core_rejected by exact Hacc. reflexivity.
  Qed.

  (** From the agent [a] to [a'] with the processings [ps]: at most one of them acts on an identity [i], none
      when [i] was seen before, and an [i] seen before or acted on is in the seen list afterwards.  It holds of
      one processing, and of [recv] and [run] because it composes: if the first part acts on [i], the second
      finds it seen. *)
  Definition once (a : agent) (ps : list proc) (a' : agent) : Prop :=
    forall i, (length (acts_on i ps) <= 1)%nat
              /\ (In i (a_seen a) -> acts_on i ps = [])
              /\ (In i (a_seen a) \/ acts_on i ps <> [] -> In i (a_seen a')).

  Lemma once_app a ps a1 qs a2 : once a ps a1 -> once a1 qs a2 -> once a (ps ++ qs) a2.
  Proof.
    intros H1 H2 i. destruct (H1 i) as (L1 & S1 & N1), (H2 i) as (L2 & S2 & N2). rewrite acts_on_app.
    destruct (acts_on i ps) as [|p l].
    - cbn [app]. repeat split; [exact L2|intros H; apply S2, N1; left; exact H|].
      intros [H|H]; apply N2; [left; apply N1; left; exact H|right; exact H].
    - assert (Hin : In i (a_seen a1)) by (apply N1; right; discriminate). rewrite (S2 Hin), app_nil_r.
      repeat split; [exact L1|exact S1|intros _; apply N2; left; exact Hin].
  Qed.

  Lemma core_once a b : once a [(b, snd (fst (recv_core a b)))] (fst (fst (recv_core a b))).
  Proof.
    intros i.
    assert (Hmono : In i (a_seen a) -> In i (a_seen (fst (fst (recv_core a b))))).
    { intros H. rewrite recv_core_seen. destruct (accepted a b); [apply in_or_app; left|]; exact H. }
    rewrite acts_on_one. cbn [fst].
    destruct (ident_eqb (ident_of b) i) eqn:E; [apply ident_eqb_eq in E; subst i|cbn; repeat split; (lia || tauto)].
    unfold nonsilent. cbn [andb snd]. destruct (snd (fst (recv_core a b))) as [|e l] eqn:Hev; [cbn; repeat split; (lia || tauto)|].
    destruct (recv_core_acted a b) as [Hn Hs]; [rewrite Hev; discriminate|].
    cbn [negb length]. split; [lia|]. split; [intros H; contradiction|intros _; exact Hs].
  Qed.

  Lemma recv_once a b : once a (snd (recv a b)) (fst (recv a b)).
  Proof.
    rewrite recv_eq. destruct (snd (recv_core a b)) as [rb|]; cbn [fst snd]; [|apply core_once].
    change [?p; ?q] with ([p] ++ [q]). eapply once_app; apply core_once.
  Qed.

  Lemma run_cons a b t :
    run a (b :: t) = (fst (run (fst (recv a b)) t), snd (recv a b) ++ snd (run (fst (recv a b)) t)).
  Proof. cbn [BpAgent.run]. destruct (recv a b) as [a1 p1]. cbn [fst snd]. destruct (run a1 t). reflexivity. Qed.

  Lemma run_once hist : forall a, once a (snd (run a hist)) (fst (run a hist)).
  Proof.
    induction hist as [|b t IH]; intros a; [intros i; cbn; repeat split; (lia || tauto)|].
    rewrite run_cons. apply (once_app a _ _ _ _ (recv_once a b)), IH.
  Qed.

  Theorem at_most_once hist : forall a i, (length (acts_on i (snd (run a hist))) <= 1)%nat.
  Proof. intros a i. apply run_once. Qed.

  Lemma recv_rejected a b : accepted a b = false -> recv a b = (a, [(b, [])]).
  Proof. intros H. rewrite recv_eq, (recv_core_rejected a b H). reflexivity. Qed.

  Theorem own_source_ignored a b : b_src b = a_node a -> recv a b = (a, [(b, [])]).
  Proof.
    intros H. apply recv_rejected. unfold accepted. rewrite H, N.eqb_refl. cbn. rewrite andb_false_r. reflexivity.
  Qed.

  Theorem duplicate_ignored a b : In (ident_of b) (a_seen a) -> recv a b = (a, [(b, [])]).
  Proof. intros H. apply recv_rejected, seen_not_accepted, H. Qed.

  Theorem bad_crc_ignored a b : b_crc_ok b = false -> recv a b = (a, [(b, [])]).
  Proof. intros H. apply recv_rejected. unfold accepted. rewrite H. reflexivity. Qed.

  Definition rx_action (a : agent) (b : bundle) : option action :=
    option_map snd (find (fun r => matches (fst r) (b_dst b)) (a_rx a)).

  (** What the RX chain decides to do with a bundle: deliver it when it is addressed to a local endpoint,
      else the action of the first receive route that matches.  The record of actions is 'receive' plus
      the disposition, and stays of that form through the BPSec step, where a failed verification turns
      'deliver' into 'delete'. *)
  Definition disposition (a : agent) (b : bundle) : option action :=
    if local_dest a b then Some ADlv else rx_action a b.
  Definition sec_disp (b : bundle) (d : option action) : option action :=
    match d, b_sec b with Some ADlv, Some _ => Some ADel | _, _ => d end.
  Definition disp_is (x : action) (d : option action) : bool :=
    match d with Some y => action_eqb x y | None => false end.

  Lemma disp_is_true x d : disp_is x d = true <-> d = Some x.
  Proof.
    destruct d as [y|]; cbn [disp_is]; [rewrite action_eqb_eq|]; split; intros H; congruence.
  Qed.

  Lemma route_actions_disp a b :
    route_actions a b = match disposition a b with Some x => add x [ARecv] | None => [ARecv] end.
  Proof.
    unfold BpAgent.route_actions, disposition, rx_action, BpAgent.rx_lookup. destruct (local_dest a b); [reflexivity|].
    destruct (find (fun r => matches (fst r) (b_dst b)) (a_rx a)); reflexivity.
  Qed.

  Lemma mem_route_actions a b s : mem s (route_actions a b) = action_eqb s ARecv || disp_is s (disposition a b).
  Proof. rewrite route_actions_disp. destruct (disposition a b) as [[]|], s; reflexivity. Qed.

  Lemma mem_sec_acts a b s :
    mem s (fst (sec_step b (route_actions a b))) = action_eqb s ARecv || disp_is s (sec_disp b (disposition a b)).
  Proof.
    unfold BpAgent.sec_step, sec_disp. rewrite route_actions_disp.
    destruct (disposition a b) as [[]|], (b_sec b), s; reflexivity.
  Qed.

  Lemma route_actions_deliver a b : mem ADlv (route_actions a b) = true -> route_actions a b = [ARecv; ADlv].
  Proof.
    rewrite mem_route_actions. cbn [action_eqb orb]. intros H. apply disp_is_true in H.
    rewrite route_actions_disp, H. reflexivity.
  Qed.

  (** the admin element rejects the bundle it has been given *)
  Definition refused (a : agent) (b : bundle) : bool :=
    b_refuse b && disp_is ADlv (sec_disp b (disposition a b)) && (b_dst b =? a_node a) && negb (is_frag b).

  Lemma mem_chain_acts a b s :
    mem s (chain_acts a b)
    = action_eqb s ARecv || disp_is s (sec_disp b (disposition a b)) || action_eqb s ADel && refused a b.
  Proof.
    unfold chain_acts, app_step, refused. rewrite (mem_sec_acts a b ADlv). cbn [action_eqb orb].
    destruct (b_refuse b && _ && _ && _); rewrite ?mem_add, mem_sec_acts, ?andb_false_r, ?andb_true_r, ?orb_false_r;
      reflexivity.
  Qed.

  Theorem recv_core_disposition a b :
    accepted a b = true ->
    let evs := snd (fst (recv_core a b)) in
    has_deliver evs = disp_is ADlv (sec_disp b (disposition a b)) && negb (is_frag b)
    /\ has_tx evs = disp_is AFwd (disposition a b) && negb (prep_fails b) && tx_ok a b.
  Proof.
    intros Hacc. cbv zeta.
    destruct (recv_core_cases a b) as [H|a' re _ _ C|a' _ _ _ _ C|_ C]; [congruence|..]; cbn [fst snd];
      rewrite ?final_has_deliver, ?final_has_tx, ?mem_chain_acts, ?mem_sec_acts, ?mem_route_actions,
        ?(tx_ok_tx a (seen_add a b) b) by reflexivity;
      rewrite mem_route_actions in C; cbn [action_eqb orb] in C.
    1,2: apply andb_true_iff in C as [C ->]; apply disp_is_true in C; rewrite C, !andb_false_r; split; reflexivity.
    (* two Boolean equations in the disposition, the BPSec outcome and the fragment flag *)
    unfold refused, sec_disp. destruct (disposition a b) as [[]|], (is_frag b); try discriminate C;
      destruct (b_sec b); cbn [disp_is action_eqb orb andb negb]; rewrite ?andb_false_r; split; reflexivity.
  Qed.

  (** A bundle to be delivered that is not a fragment is delivered iff BPSec verification succeeds. *)
  Lemma disposition_deliver a b :
    accepted a b = true -> disposition a b = Some ADlv -> b_frag b = None ->
    let evs := snd (fst (recv_core a b)) in
    (has_deliver evs = true <-> b_sec b = None) /\ has_tx evs = false.
  Proof.
    intros Hacc Hd Hf. destruct (recv_core_disposition a b Hacc) as [E1 E2]. cbv zeta. rewrite E1, E2, Hd.
    unfold sec_disp, is_frag. rewrite Hf. split; [|reflexivity].
    destruct (b_sec b); split; (discriminate || reflexivity).
  Qed.

  Theorem first_match a b :
    accepted a b = true -> local_dest a b = false ->
    let act := rx_action a b in
    let evs := snd (fst (recv_core a b)) in
    (has_deliver evs = true -> act = Some ADlv)
    /\ (has_tx evs = true -> act = Some AFwd)
    /\ (act = Some ADlv -> b_frag b = None -> (has_deliver evs = true <-> b_sec b = None) /\ has_tx evs = false)
    /\ (act = Some AFwd -> has_deliver evs = false /\ has_tx evs = negb (prep_fails b) && tx_ok a b)
    /\ (act <> Some ADlv -> act <> Some AFwd -> has_deliver evs = false /\ has_tx evs = false).
  Proof.
    intros Hacc Hloc. cbv zeta.
    assert (Hd : disposition a b = rx_action a b) by (unfold disposition; rewrite Hloc; reflexivity).
    pose proof (disposition_deliver a b Hacc) as Hdl. rewrite Hd in Hdl.
    destruct (recv_core_disposition a b Hacc) as [E1 E2]. rewrite Hd in E1, E2.
    (* the third conjunct is [disposition_deliver]; the others are read off the two equations [E1], [E2],
       for each action the route can name *)
    split; [|split; [|split; [exact Hdl|split]]]; clear Hdl; rewrite ?E1, ?E2;
      destruct (rx_action a b) as [[]|]; unfold sec_disp; try destruct (b_sec b);
      cbn [disp_is action_eqb andb]; intros; try split; try discriminate; try reflexivity; congruence.
  Qed.

  Theorem local_delivered a b :
    accepted a b = true -> local_dest a b = true -> b_frag b = None ->
    let evs := snd (fst (recv_core a b)) in
    (has_deliver evs = true <-> b_sec b = None) /\ has_tx evs = false.
  Proof.
    intros Hacc Hloc. apply (disposition_deliver a b Hacc). unfold disposition. rewrite Hloc. reflexivity.
  Qed.

  Theorem no_route_no_action a b :
    accepted a b = true -> local_dest a b = false -> rx_action a b = None ->
    snd (fst (recv_core a b)) = [] /\ snd (recv_core a b) = None.
  Proof.
    intros Hacc Hloc Hact.
    assert (Hr : route_actions a b = [ARecv]) by (rewrite route_actions_disp; unfold disposition; rewrite Hloc, Hact; reflexivity).
    destruct (recv_core_cases a b) as [H|a' re _ _ C|a' _ _ _ _ C|_ _]; try congruence;
      try (rewrite Hr in C; discriminate).
    cbn [fst snd]. unfold chain_acts, app_step, BpAgent.sec_step. rewrite Hr.
    destruct (b_sec b); cbn [mem existsb action_eqb orb fst snd]; rewrite !andb_false_r, final_eq; cbn; auto.
  Qed.

  Theorem create_report_iff node ts b acts rsn :
    create_report node ts b acts rsn <> None
    <-> b_rpt b <> EID_NONE /\ exists s, In s acts /\ requested b s = true.
  Proof.
    unfold create_report. destruct (b_rpt b =? EID_NONE) eqn:E.
    - apply N.eqb_eq in E. split; [intros H; contradiction | intros [H _]; contradiction].
    - apply N.eqb_neq in E. rewrite <- filter_nonempty_iff.
      destruct (filter (fun s => requested b s) acts); split.
      + intros H; contradiction.
      + intros [_ H]; contradiction.
      + intros _. split; [exact E | discriminate].
      + intros _. discriminate.
  Qed.

  (** The status array as [create_report] builds it from the actions [hit], read at the position of [s], says whether
      [s] is among them (positions and length computed from the generated table). *)
  Lemma status_array s k (hit : list action) :
    status_index s = Some k ->
    nth k (map (fun k0 => existsb (fun s0 => match status_index s0 with Some j => Nat.eqb j k0 | None => false end) hit)
               (seq 0 status_array_len)) false
    = mem s hit.
  Proof.
    intros K. destruct s; cbv in K; inversion K; subst k; cbn [status_array_len seq map nth];
      apply existsb_ext; intros []; reflexivity.
  Qed.

  Lemma create_report_asserted node ts b acts rsn r s :
    create_report node ts b acts rsn = Some r -> asserted r s = mem s acts && requested b s.
  Proof.
    unfold create_report. destruct (b_rpt b =? EID_NONE); [discriminate|].
    destruct (filter (fun s0 => requested b s0) acts) as [|h t] eqn:F; [discriminate|].
    intros H. apply some_inj in H. subst r. unfold asserted. cbv beta iota delta [r_status].
    destruct (status_index s) as [k|] eqn:K.
    - rewrite (status_array s k _ K), <- F. apply mem_filter.
    - destruct s; cbv in K; try discriminate. unfold requested. cbn. rewrite andb_false_r. reflexivity.
  Qed.

  Lemma create_report_fields node ts b acts rsn r :
    create_report node ts b acts rsn = Some r ->
    b_rpt b <> EID_NONE /\ r_dst r = b_rpt b /\ r_src r = node /\ r_rpt r = EID_NONE
    /\ r_flags r = report_bundle_flags /\ r_crc r = report_crc_type /\ r_time r = fst ts /\ r_seq r = snd ts
    /\ r_with_time r = has_flag (b_flags b) status_time_flag
    /\ r_subj_src r = b_src b /\ r_subj_time r = b_time b /\ r_subj_seq r = b_seq b
    /\ length (r_status r) = status_array_len
    /\ r_reason r = match rsn with Some rc => if rc =? 0 then default_reason else rc | None => default_reason end.
  Proof.
    unfold create_report. destruct (b_rpt b =? EID_NONE) eqn:E; [discriminate|]. apply N.eqb_neq in E.
    destruct (filter (fun s0 => requested b s0) acts); [discriminate|].
    intros H. apply some_inj in H. subst r.
    cbv beta iota delta [r_dst r_src r_rpt r_flags r_crc r_time r_seq r_with_time r_subj_src r_subj_time r_subj_seq r_status r_reason].
    rewrite map_length, seq_length. repeat split; auto.
  Qed.

  Definition flags_request (flags : N) (s : action) : bool :=
    match req_flag s with Some f => has_flag flags f | None => false end.

  (** A report never requests reports about itself. *)
  Lemma report_flags_request_nothing s : flags_request report_bundle_flags s = false.
  Proof. destruct s; vm_compute; reflexivity. Qed.

  Theorem no_cascade node ts b acts rsn r :
    create_report node ts b acts rsn = Some r ->
    (forall s, flags_request (r_flags r) s = false)
    /\ has_flag (r_flags r) status_time_flag = false
    /\ has_flag (r_flags r) FLAG_PAYLOAD_ADMIN = true
    /\ r_rpt r = EID_NONE
    /\ (forall node' ts' b' acts' rsn', b_flags b' = r_flags r -> create_report node' ts' b' acts' rsn' = None).
  Proof.
    intros H. destruct (create_report_fields _ _ _ _ _ _ H) as (_ & _ & _ & Hrpt & Hfl & _).
    rewrite Hfl.
    split; [intros s; apply report_flags_request_nothing|].
    split; [vm_compute; reflexivity|].
    split; [vm_compute; reflexivity|].
    split; [exact Hrpt|].
    intros node' ts' b' acts' rsn' Hb.
    destruct (create_report node' ts' b' acts' rsn') eqn:E; [|reflexivity].
    exfalso. assert (Hne : create_report node' ts' b' acts' rsn' <> None) by (rewrite E; discriminate).
    apply create_report_iff in Hne. destruct Hne as [_ [s [_ Hs]]].
    change (requested b' s) with (flags_request (b_flags b') s) in Hs.
    rewrite Hb, report_flags_request_nothing in Hs. discriminate.
  Qed.

  Lemma recv_core_final a b :
    snd (fst (recv_core a b)) = []
    \/ exists a' acts rsn c, a_node a' = a_node a /\ snd (fst (recv_core a b)) = snd (final a' b acts rsn c).
  Proof.
    destruct (recv_core_cases a b) as [_|a' re _ _ _|a' _ _ Hn _ _|_ _]; cbn [fst snd]; auto;
      right; eexists _, _, _, _; (split; [|reflexivity]); [exact Hn|reflexivity].
  Qed.

  (** every report is [create_report] of the processed bundle, up to the time stamp [_apply_primary] gives it *)
  Lemma recv_core_report a b r :
    In r (reports_of (snd (fst (recv_core a b)))) ->
    exists ts cur acts rsn, create_report (a_node a) ts cur acts rsn = Some r /\ stamped b cur.
  Proof.
    destruct (recv_core_final a b) as [->|(a' & acts & rsn & c & <- & ->)]; [intros []|]. intros H.
    destruct (final_report _ _ _ _ _ _ H) as (ts & cur & acts' & rsn' & Hcr & Hst & _). eauto 6.
  Qed.

  Theorem report_sound a b r :
    In r (reports_of (snd (fst (recv_core a b)))) ->
    b_rpt b <> EID_NONE /\ r_dst r = b_rpt b /\ r_src r = a_node a /\ r_rpt r = EID_NONE
    /\ r_flags r = report_bundle_flags /\ r_crc r = report_crc_type
    /\ r_with_time r = has_flag (b_flags b) status_time_flag
    /\ r_subj_src r = b_src b
    /\ (b_time b <> 0 -> r_subj_time r = b_time b /\ r_subj_seq r = b_seq b)
    /\ (exists s, asserted r s = true)
    /\ (forall s, asserted r s = true -> requested b s = true).
  Proof.
    intros Hrep.
    destruct (recv_core_report a b r Hrep) as (ts & cur & acts' & rsn' & Hcr & Hsrc & Hrpt & Hfl & Htime).
    pose proof (create_report_fields _ _ _ _ _ _ Hcr) as (F1 & F2 & F3 & F4 & F5 & F6 & _ & _ & F9 & F10 & F11 & F12 & _).
    assert (Hreq : forall s, requested cur s = requested b s) by (intros s; unfold requested; rewrite Hfl; reflexivity).
    rewrite Hrpt in F1, F2. rewrite Hfl in F9. rewrite Hsrc in F10.
    repeat (split; [assumption|]).
    split.
    { intros Ht. rewrite (Htime Ht) in F11, F12. auto. }
    split.
    - assert (Hne : create_report (a_node a) ts cur acts' rsn' <> None) by (rewrite Hcr; discriminate).
      apply create_report_iff in Hne. destruct Hne as [_ [s [Hin Hs]]]. exists s.
      rewrite (create_report_asserted _ _ _ _ _ _ s Hcr), Hs. apply mem_In in Hin. rewrite Hin. reflexivity.
    - intros s Hs. rewrite (create_report_asserted _ _ _ _ _ _ s Hcr) in Hs.
      apply andb_true_iff in Hs. rewrite <- Hreq. apply Hs.
  Qed.

  Theorem report_no_cascade a b r :
    In r (reports_of (snd (fst (recv_core a b)))) ->
    (forall s, flags_request (r_flags r) s = false)
    /\ has_flag (r_flags r) status_time_flag = false
    /\ has_flag (r_flags r) FLAG_PAYLOAD_ADMIN = true
    /\ r_rpt r = EID_NONE
    /\ (forall node' ts' b' acts' rsn', b_flags b' = r_flags r -> create_report node' ts' b' acts' rsn' = None).
  Proof.
    intros H. destruct (recv_core_report a b r H) as (ts & cur & acts' & rsn' & Hcr & _).
    exact (no_cascade _ _ _ _ _ _ Hcr).
  Qed.

  Theorem forwarded_not_deleted a b r :
    In r (reports_of (snd (fst (recv_core a b)))) ->
    has_tx (snd (fst (recv_core a b))) = true -> asserted r ADel = false.
  Proof.
    destruct (recv_core_final a b) as [->|(a' & acts & rsn & c & _ & ->)]; [intros []|]. intros Hrep Htx.
    destruct (final_report _ _ _ _ _ _ Hrep) as (ts & cur & acts' & rsn' & Hcr & _ & Ho).
    rewrite Htx in Ho. rewrite final_has_tx in Htx. destruct (mem ADel acts) eqn:Hdel; [discriminate|].
    rewrite (create_report_asserted _ _ _ _ _ _ ADel Hcr).
    destruct Ho as [_|_ _ _|_ _ Hx]; [| |discriminate]; rewrite ?mem_add, Hdel; reflexivity.
  Qed.

  (** In a report among the events of [final] the asserted statuses are exactly the requested ones that occurred,
      when the action record is 'receive' plus one disposition [d] - unless the fragment step took the bundle over
      on a route whose CL is not attached. *)
  Lemma final_asserted_occurred a b acts rsn d r :
    let evs := snd (final a b acts rsn (disp_is ADlv d)) in
    In r (reports_of evs) ->
    (forall x, mem x acts = action_eqb x ARecv || disp_is x d) ->
    (forall k, bundle_path a b <> SentFrags k false) ->
    forall s, asserted r s = requested b s && occurred evs s.
  Proof.
    cbv zeta. intros Hrep Hm Hnc s.
    destruct (final_report _ _ _ _ _ _ Hrep) as (ts & cur & acts' & rsn' & Hcr & (_ & _ & Hfl & _) & Ho).
    unfold occurred. rewrite final_has_deliver, final_has_tx in *.
    rewrite (create_report_asserted _ _ _ _ _ _ s Hcr). unfold requested. rewrite Hfl. fold (requested b s).
    (* what is asserted: the record that [finish] was given, one of three *)
    destruct Ho as [Hfin|Hdel Hfwd [Hok|(k & Hok)]|Hdel Hfwd Hx]; [| |exfalso; exact (Hnc k Hok)|].
    (* Every membership, in the goal and in the hypotheses of the case, is one in [acts], that is ([Hm]) a test
       on the disposition: the dispositions the case excludes go ... *)
    all: rewrite ?mem_add, ?mem_remove, ?Hm in *;
      destruct d as [[]|]; cbn [disp_is action_eqb orb andb negb] in *;
      try discriminate; try (destruct Hfin; discriminate).
    (* ... and with [has_tx] known what is left is a Boolean identity in [s] and [requested b s] *)
    all: rewrite ?Hok, ?Hx; destruct s; cbn [action_eqb orb andb negb];
      try change (requested b AOther) with false; try destruct (requested b _); reflexivity.
  Qed.

  (** The asserted statuses are exactly the requested ones that occurred - provided the bundle is not a
      fragment routed to delivery (whose actions the reassembly step clears) and the fragment step did not
      take the bundle over on a route whose CL is not attached (then 'forward' is recorded although every
      fragment fails in its own [send_bundle]; see [asserted_occurred_refuted]). *)
  Theorem asserted_occurred_partial a b r :
    In r (reports_of (snd (fst (recv_core a b)))) ->
    mem ADlv (route_actions a b) && is_frag b = false ->
    (forall k, send_path a (b_dst b) (b_size b) (has_flag (b_flags b) FLAG_NO_FRAGMENT) (is_frag b) (b_fragfeas b)
               <> SentFrags k false) ->
    b_refuse b = false ->
    forall s, asserted r s = requested b s && occurred (snd (fst (recv_core a b))) s.
  Proof.
    intros Hrep Hnf Hnc Hnr.
    destruct (recv_core_cases a b) as [_|a' re _ _ _|a' _ _ _ _ C|_ _]; cbn [fst snd] in *; try destruct Hrep; [congruence|].
    (* nothing is refused: the record is 'receive' plus the disposition after the BPSec step *)
    unfold chain_acts, app_step in *. rewrite Hnr, (mem_sec_acts a b ADlv) in *. cbn [andb action_eqb orb] in *.
    apply final_asserted_occurred; [exact Hrep|intros x; apply mem_sec_acts|exact Hnc].
  Qed.

  Lemma finish_attempt a sub cur acts rsn :
    b_rpt cur <> EID_NONE -> mem ARecv acts = true -> requested cur ARecv = true ->
    existsb is_report_ev (snd (finish a sub cur acts rsn)) = true.
  Proof.
    intros Hr Hm Hq.
    assert (Hne : create_report (a_node a) (a_now a, a_tsn a) cur acts rsn <> None).
    { apply create_report_iff. split; [exact Hr|]. exists ARecv. split; [apply mem_In; exact Hm | exact Hq]. }
    rewrite finish_eq. destruct (create_report _ _ cur acts rsn) as [r0|]; [|contradiction].
    cbn [snd existsb]. rewrite (proj1 (proj2 (report_ev_spec a sub r0))). reflexivity.
  Qed.

  Lemma final_attempt a b acts rsn c :
    b_rpt b <> EID_NONE -> requested b ARecv = true -> mem ARecv acts = true ->
    mem ADel acts || mem ADlv acts || mem AFwd acts = true ->
    existsb is_report_ev (snd (final a b acts rsn c)) = true.
  Proof.
    intros Hr Hq Hm Hdisp. pose proof (finish_attempt a b b acts rsn Hr Hm Hq) as Hfin.
    rewrite final_eq. unfold seq_ev. cbn [fst snd]. rewrite existsb_app.
    destruct (mem ADel acts); [rewrite Hfin; apply orb_true_r|]. cbn [snd]. rewrite existsb_app.
    destruct (mem ADlv acts); [rewrite Hfin; apply orb_true_r|].
    cbn [orb fst snd existsb] in *. rewrite Hdisp.
    destruct (do_fwd_cases a a b acts rsn (frame_refl a)) as (a2 & cur & acts' & rsn' & pre & Hs & ->). unfold seq_ev. cbn [snd].
    destruct (ps_cur Hs) as (_ & Hrpt & Hfl & _).
    rewrite existsb_app, finish_attempt, !orb_true_r; [reflexivity|..].
    - rewrite Hrpt. exact Hr.
    - destruct (ps_case Hs) as [(_ & Ha & _)|(Ha & _)]; rewrite Ha, mem_add, ?mem_remove, Hm; reflexivity.
    - unfold requested. rewrite Hfl. exact Hq.
  Qed.

  (** If a reception report is requested, a report-to endpoint is named and the bundle reaches a final
      disposition (deleted, delivered or taken for forwarding), a status report is built and handed to
      [send_bundle].  (Not so for bundles matching no route and for fragments routed to delivery, see
      Props/C19.v.) *)
  Theorem report_attempted_if a b :
    accepted a b = true ->
    mem ADlv (route_actions a b) && is_frag b = false ->
    b_rpt b <> EID_NONE -> requested b ARecv = true ->
    mem ADel (chain_acts a b) || mem ADlv (chain_acts a b) || mem AFwd (chain_acts a b) = true ->
    exists e, In e (snd (fst (recv_core a b))) /\ is_report_ev e = true.
  Proof.
    intros Hacc Hnf Hr Hq Hdisp. apply existsb_exists.
    destruct (recv_core_cases a b) as [H|a' re _ _ C|a' _ _ _ _ C|_ _]; try congruence. cbn [fst snd].
    apply final_attempt; try assumption.
    rewrite mem_chain_acts. reflexivity.
  Qed.

  (** For EVERY action record: when 'delete' is in it the bundle is finished once and nothing else happens
      (also when 'deliver' or 'forward' are in it too); otherwise one finish per 'deliver' and per
      'forward'. *)
  Theorem final_counts a b acts rsn c :
    let evs := snd (final a b acts rsn c) in
    (mem ADel acts = true -> (count is_report_ev evs <= 1)%nat /\ count is_tx_ev evs = 0%nat)
    /\ (mem ADlv acts && mem AFwd acts = false -> (count is_report_ev evs <= 1)%nat)
    /\ (count is_deliver_ev evs <= 1)%nat /\ (count is_tx_ev evs <= 1)%nat.
  Proof.
    cbv zeta. assert (B : forall x, (b2n x <= 1)%nat) by (intros []; cbn; lia).
    destruct (final_stage a b acts rsn c) as [_ _ R -> ->]. pose proof (B c).
    pose proof (B (negb (mem ADel acts) && mem AFwd acts && negb (prep_fails b) && tx_ok a b)).
    destruct (mem ADel acts), (mem ADlv acts), (mem AFwd acts); cbn [negb andb b2n Nat.add] in *;
      repeat split; intros; try discriminate; lia.
  Qed.

  (** One call of recv_bundle: at most one status report is built, at most one delivery callback fires, the
      bundle is handed to a CL at most once (whole or as one set of fragments). *)
  Theorem one_finish a b :
    let evs := snd (fst (recv_core a b)) in
    (count is_report_ev evs <= 1)%nat /\ (count is_deliver_ev evs <= 1)%nat /\ (count is_tx_ev evs <= 1)%nat.
  Proof.
    cbv zeta. destruct (recv_core_cases a b) as [_|a' re _ _ _|a' _ _ _ _ C|_ _]; cbn [fst snd]; try (cbn; lia).
    - apply andb_true_iff in C. destruct C as [C _]. rewrite (route_actions_deliver a b C).
      destruct (final_counts a' b [ARecv; ADlv] None false) as (_ & H2 & H3 & H4).
      split; [apply H2; reflexivity|]. split; assumption.
    - destruct (final_counts (seen_add a b) b (chain_acts a b) (snd (sec_step b (route_actions a b)))
                             (mem ADlv (fst (sec_step b (route_actions a b))))) as (_ & H2 & H3 & H4).
      split; [|split; assumption]. apply H2. rewrite !mem_chain_acts.
      destruct (sec_disp b (disposition a b)) as [[]|]; reflexivity.
  Qed.

End WithMatch.

Definition ALL_REPORT_FLAGS : N :=
  FLAG_REQ_DELETION_REPORT + FLAG_REQ_DELIVERY_REPORT + FLAG_REQ_FORWARDING_REPORT + FLAG_REQ_RECEPTION_REPORT
  + FLAG_REQ_STATUS_TIME.

(** EIDs: 1 this node, 2 the SAND group endpoint, 5 a source, 7 a report-to endpoint, 9 a destination.
    Route patterns: 0 (rx) matches EID 9 only, 1000 (tx) matches EID 7 only, 1001 (tx) matches EID 9 only. *)
Definition w_matches : N -> eid -> bool := table_matches [(0, 9); (1000, 7); (1001, 9)].
Definition w_bundle (time seq : N) (frag : option (N * N)) : bundle :=
  mkBundle 5 9 7 time seq frag ALL_REPORT_FLAGS 5 true None 0 95 true false.
Definition w_agent (rx : list (N * action)) (tx : list txroute) : agent :=
  mkAgent 1 [2] rx tx [] [] 800000000000 0.
Definition w_rpt_route : txroute := mkTx 1000 true None 0.
Definition w_fwd_route : txroute := mkTx 1001 true None 0.
Definition w_events (a : agent) (b : bundle) : list event := snd (fst (recv_core w_matches a b)).

(** The fragment step takes the bundle over (MTU 60 < size 95, feasible) on a route whose CL is not
    attached: every fragment fails in [send_bundle], nothing reaches a CL, yet 'forwarded' is reported. *)
Lemma asserted_occurred_refuted :
  exists a b r,
    In r (reports_of (w_events a b))
    /\ mem ADlv (route_actions w_matches a b) && is_frag b = false
    /\ requested b AFwd = true
    /\ asserted r AFwd = true /\ occurred (w_events a b) AFwd = false
    /\ asserted r ADel = false.
Proof.
  exists (w_agent [(0, AFwd)] [w_rpt_route; mkTx 1001 false (Some 60) 0]), (w_bundle 1000 1 None). eexists.
  split; [vm_compute; left; reflexivity|]. vm_compute. repeat split.
Qed.

(** A forward that fails outright (no transmit route) is reported as deleted and NOT as forwarded. *)
Lemma failed_forward_reported_deleted_only :
  let a := w_agent [(0, AFwd)] [w_rpt_route] in
  let b := w_bundle 1000 1 None in
  map (fun r => (map (asserted r) [ARecv; AFwd; ADlv; ADel], r_reason r)) (reports_of (w_events a b))
  = [([true; false; false; true], fwd_fail_reason)].
Proof. vm_compute. reflexivity. Qed.

(** A forwarded bundle with creation time zero: the report names the rewritten timestamp. *)
Lemma subject_refuted :
  exists a b r,
    In r (reports_of (w_events a b))
    /\ has_tx (w_events a b) = true
    /\ (r_subj_time r =? b_time b) = false.
Proof.
  exists (w_agent [(0, AFwd)] [w_rpt_route; w_fwd_route]), (w_bundle 0 7 None). eexists.
  split; [vm_compute; left; reflexivity|]. vm_compute. repeat split.
Qed.

(** No route: the bundle is dropped without any report although a reception report was requested. *)
Lemma attempted_if_refuted_no_route :
  exists a b,
    accepted a b = true /\ b_rpt b <> EID_NONE /\ requested b ARecv = true /\ requested b ADel = true
    /\ w_events a b = [].
Proof.
  exists (w_agent [] [w_rpt_route]), (w_bundle 1000 1 None). vm_compute. repeat split; discriminate.
Qed.

(** A fragment routed to delivery: its actions are cleared, no reception report. *)
Lemma attempted_if_refuted_fragment :
  exists a b,
    accepted a b = true /\ b_rpt b <> EID_NONE /\ requested b ARecv = true /\ is_frag b = true
    /\ w_events a b = [].
Proof.
  exists (w_agent [(0, ADlv)] [w_rpt_route]), (w_bundle 1000 1 (Some (0, 10))). vm_compute. repeat split; discriminate.
Qed.

Lemma finish_reports_le1 matches a sub cur acts rsn :
  (length (reports_of (snd (finish matches a sub cur acts rsn))) <= 1)%nat.
Proof.
  eapply Nat.le_trans; [apply reports_count|apply (finish_stage matches a a sub cur acts rsn (frame_refl a))].
Qed.

(** Gen/Chain.v has the [order=] constants of every registered ChainStep; [chain_ids l] is what Agent.__init__'s
    stable [list.sort()] makes of the steps in registration order. *)
Fixpoint chain_insert (x : Z * string * string) (l : list (Z * string * string)) : list (Z * string * string) :=
  match l with
  | [] => [x]
  | y :: t => if Z.leb (fst (fst x)) (fst (fst y)) then x :: y :: t else y :: chain_insert x t
  end.
Definition chain_sort (l : list (Z * string * string)) : list (Z * string * string) := fold_right chain_insert [] l.
Definition chain_ids (l : list (Z * string * string)) : list (string * string) :=
  map (fun s => (snd (fst s), snd s)) (chain_sort l).

(** The order Model/BpAgent.v follows: application routing, static routing, reassembly, BPSec verification,
    application handlers on reception; discovered routes, static routing, BPSec application, fragmentation
    on transmission. *)
Lemma chain_order :
  chain_ids rx_steps =
    [("admin", "_rx_route"); ("sand", "_rx_route"); ("safe", "_rx_route"); ("agent", "_do_rx_step");
     ("fragment", "_reassemble"); ("bpsec", "_verify_bcb"); ("bpsec", "_verify_bib");
     ("admin", "_recv_bundle"); ("sand", "_recv_bundle"); ("safe", "_recv_bundle")]%string
  /\ chain_ids tx_steps =
    [("sand", "_tx_route"); ("agent", "_do_tx_step"); ("bpsec", "_apply_bib"); ("bpsec", "_apply_bcb");
     ("fragment", "_create")]%string.
Proof. vm_compute. split; reflexivity. Qed.
