(** TCPCL endpoint model: the segment size in use is positive whenever the
    session is established, under hypotheses on the inputs only; the partial
    theorems on START segments and on the grammar restated under those hypotheses. *)
From Coq Require Import NArith List Bool.
From RecordUpdate Require Import RecordSet.
From DTN Require Import Lib.Bytes Model.TcpclMsg Model.TcpclSess Proofs.TcpclSessBasics
  Proofs.TcpclSentProofs2 Proofs.TcpclSentProofs5 Proofs.TcpclSentProofs7 Proofs.TcpclSentProofs8
  Proofs.TcpclSentProofs11 Proofs.TcpclSessSpec.
Import ListNotations RecordSetNotations.
Local Open Scope N_scope.

Lemma closed_step_o_inv o s : not_rx o = true -> closed (step s o) = false -> closed s = false.
Proof. intros Ho H. destruct (closed s) eqn:Hc; [|reflexivity]. rewrite step_closed in H by exact Hc. destruct o; cbn in H; congruence. Qed.

(** An active endpoint that is past the contact exchange and still open has
    sent its SESS_INIT. *)
Definition SA (s : ep) : Prop :=
  c_passive (cf s) = false -> in_conn s = true -> closed s = false -> sessinit_this s <> None.

Lemma SA_recv_frame fr s : SA s -> kind_ok s fr -> closed s = false -> SA (fst (recv_frame fr s)).
Proof.
  intros H Hk Hc. destruct fr as [c|m]; cbn [kind_ok] in Hk.
  - destruct (recv_contact_spec c s); unfold SA; ep_cbn; intros Ha Hi Hcl; congruence.
  - rewrite recv_msg_pr. destruct (handle_msg_spec m s); spec_cases; unfold SA; ep_cbn; intros Ha _ _;
      first [congruence | exact (H Ha Hk Hc)].
Qed.

Lemma SA_step_o o s : SA s -> closed s = false -> not_rx o = true -> SA (step s o).
Proof.
  intros H Hc Ho. destruct (step_spec s o Hc); try discriminate Ho; spec_cases; unfold SA; ep_cbn;
    intros Ha Hi _; exact (H Ha Hi Hc).
Qed.

Definition goodinit (f : frame) : Prop :=
  match f with FMsg (MSessInit _ smru _ nid _) => 0 < smru /\ ascii nid = true | _ => True end.

(** Under the hypotheses on the inputs the segment size of a session is positive. *)
Definition PS (s : ep) : Prop :=
  Forall goodinit (handled s) -> 0 < c_seg_init (cf s) -> in_sess s = true -> 0 < seg_size s.

Lemma PS_recv_frame fr s rest : SA s -> PS s -> kind_ok s fr -> closed s = false ->
  PS (fst (recv_frame fr (s <| rx_buf := rest |> <| handled := handled s ++ [fr] |>))).
Proof.
  intros HS H Hk Hc. unfold PS. rewrite handled_recv_frame, cf_recv_frame. ep_cbn. intros Hg Hi.
  apply Forall_app in Hg. destruct Hg as [Hg Hf]. inversion Hf as [|x y Hfr _]. subst x y.
  destruct fr as [c|m]; cbn [kind_ok] in Hk.
  - rewrite in_sess_recv_contact, seg_size_recv_contact. ep_cbn. apply H; assumption.
  - rewrite in_sess_recv_msg, seg_size_recv_msg. ep_cbn.
    destruct m as [fl xid ext data|fl xid len|r xid| |fl r|a b|ka smru xmru nid ext];
      cbn [is_init]; rewrite ?orb_false_r; try (apply H; assumption).
    intros _. cbn [goodinit] in Hfr. destruct Hfr as [Hm Ha]. unfold init_ok. ep_cbn. rewrite Ha, andb_true_r.
    destruct (c_passive (cf s)) eqn:Hp; cbn [orb].
    + apply N.min_glb_lt; assumption.
    + destruct (sessinit_this s) eqn:Et; [apply N.min_glb_lt; assumption|].
      exfalso. apply (HS Hp Hk Hc). exact Et.
Qed.

Lemma PS_step_o o s : PS s -> not_rx o = true -> PS (step s o).
Proof.
  intros H Ho. unfold PS. rewrite (handled_step_o o s Ho), (step_cf s o), (in_sess_step_o o s Ho), (seg_size_step_o o s Ho).
  exact H.
Qed.

Lemma SA_keeps : keeps SA SA.
Proof.
  constructor; try (intros; assumption).
  - intros s o _. apply SA_step_o.
  - intros s fr rest _ H Hc Hk. apply SA_recv_frame; assumption.
Qed.

Lemma PS_keeps : keeps SA PS.
Proof.
  constructor; try (intros; assumption).
  - intros s o _ H _. apply PS_step_o, H.
  - intros s fr rest HS H Hc Hk. apply PS_recv_frame; assumption.
Qed.

Lemma InvS_run c ops : SA (run c ops) /\ PS (run c ops).
Proof.
  apply (keeps_run _ c (keeps_and _ _ SA_keeps PS_keeps)).
  split; [intros _ H; discriminate H|intros _ _ H; discriminate H].
Qed.

Lemma handled_prefix c : forall ops k, exists x, handled (run c ops) = handled (run c (firstn k ops)) ++ x.
Proof.
  intros ops k.
  replace (run c ops) with (fold_left step (skipn k ops) (run c (firstn k ops)))
    by (rewrite <- run_app, firstn_skipn; reflexivity).
  apply run_invariant_from; [exists []; symmetry; apply app_nil_r|].
  intros s o [x Hx]. destruct (step_mono s o) as (_&_&_&[h Hh]).
  exists (x ++ h). rewrite Hh, Hx, app_assoc. reflexivity.
Qed.

(** The guard of the partial theorems from hypotheses on the inputs: the local
    initial segment size is at least 1, and every SESS_INIT handled announces a
    segment MRU of at least 1 and a decodable (ASCII) node id. *)
Theorem pos_seg_from_inputs c ops :
  0 < c_seg_init c -> Forall goodinit (handled (run c ops)) ->
  forall k, pos_seg (run c (firstn k ops)).
Proof.
  intros Hc Hg k. destruct (InvS_run c (firstn k ops)) as [_ H]. unfold PS in H. rewrite cf_run in H.
  unfold pos_seg. apply H; [|exact Hc]. destruct (handled_prefix c ops k) as [x Hx]. rewrite Hx in Hg.
  apply Forall_app in Hg. apply Hg.
Qed.

Theorem no_start_after_term_inputs c ops :
  0 < c_seg_init c -> Forall goodinit (handled (run c ops)) ->
  forall pre fl r post, sent (run c ops) = pre ++ FMsg (MSessTerm fl r) :: post ->
  Forall (fun f => match f with FMsg (MXferSeg flags _ _ _) => has_start flags = false | _ => True end) post.
Proof. intros Hc Hg. apply no_start_after_term_partial, pos_seg_from_inputs; assumption. Qed.

Theorem C04_grammar_active_inputs c ops : c_passive c = false ->
  0 < c_seg_init c -> Forall goodinit (handled (run c ops)) -> legal_prefix (sent (run c ops)) = true.
Proof. intros Ha Hc Hg. apply C04_grammar_active_partial; [exact Ha|apply pos_seg_from_inputs; assumption]. Qed.

Theorem C04_grammar_passive_inputs c ops : c_passive c = true -> peer_coop (handled (run c ops)) ->
  0 < c_seg_init c -> Forall goodinit (handled (run c ops)) -> legal_prefix (sent (run c ops)) = true.
Proof. intros Hp Hco Hc Hg. apply C04_grammar_passive_partial; [exact Hp|exact Hco|apply pos_seg_from_inputs; assumption]. Qed.
