(** TCPCL endpoint model: the event-loop operations other than a read, octet
    accounting and monotonicity of the observation sequences. *)
From Coq Require Import NArith List Bool PeanoNat.
From RecordUpdate Require Import RecordSet.
From DTN Require Import Lib.Bytes Model.TcpclMsg Model.TcpclSess Proofs.TcpclSessBasics Proofs.TcpclSentProofs2.
From DTN Require Import Proofs.TcpclSessSpec.
Import ListNotations RecordSetNotations.
Local Open Scope N_scope.

(* Lemmas with suffix [_o] are about an operation other than a read. *)

Definition not_rx (o : op) : bool := match o with ORx _ => false | _ => true end.

(** The segment [send_next] emits for transfer [tmp] at offset [len]. *)
Definition seg_of (tmp : option (N * bytes)) (len segsz : N) : list frame :=
  match tmp with
  | None => []
  | Some (id, data) =>
    let total := N.of_nat (length data) in
    if (len =? total) && (0 <? len) then []
    else
      let start := len =? 0 in
      let seg := firstn (N.to_nat segsz) (skipn (N.to_nat len) data) in
      let newlen := len + N.of_nat (length seg) in
      let is_end := newlen =? total in
      [FMsg (MXferSeg ((if start then FLAG_START else 0) + (if is_end then FLAG_END else 0)) id
                      (if start then total_length_ext total else []) seg)]
  end.

Definition out_pq (s : ep) : list frame :=
  match tx_tmp s with
  | Some _ => seg_of (tx_tmp s) (tx_len s) (seg_size s)
  | None =>
    if in_sess s && negb (in_term s) then
      match pend_start s with
      | (id, data) :: _ => seg_of (Some (id, data)) 0 (seg_size s)
      | [] => []
      end
    else []
  end.

Definition out_op (o : op) (s : ep) : list frame :=
  match o with
  | OStart => if (state s =? ST_CONNECTING) && negb (c_passive (cf s)) then [our_contact] else []
  | OTerm r => out_term r false s
  | OPQ => if (0 <? n_pq s)%nat then out_pq s else []
  | OFireKa => match ka_due s with
               | Some due => if due <=? now s then [FMsg MKeepalive] else []
               | None => []
               end
  | OFireIdle => match idle_due s with
                 | Some due => if due <=? now s then out_term 1 false s else []
                 | None => []
                 end
  | _ => []
  end.

Lemma seg_of_done id data len z :
  (len =? N.of_nat (length data)) && (0 <? len) = true -> seg_of (Some (id, data)) len z = [].
Proof. intros H. unfold seg_of. rewrite H. reflexivity. Qed.

Lemma seg_of_more id data len z : (len =? N.of_nat (length data)) && (0 <? len) = false ->
  seg_of (Some (id, data)) len z = [FMsg (seg_msg id data len (seg_data data len z))].
Proof. intros H. unfold seg_of. rewrite H. reflexivity. Qed.

(** The sub-specifications of a case of [op_spec] opened, its hypotheses
    speaking of projections of [s]. *)
Ltac op_cases := spec_cases; cbn [tx_tmp tx_len seg_size xfer_started set] in *.
Ltac out_leaf :=
  unfold out_op, out_pq, out_term; rw_hyps; cbn [andb negb];
  rewrite ?andb_false_r, ?seg_of_done, ?seg_of_more by assumption.

Lemma same_step_o o s : not_rx o = true ->
  in_conn (step s o) = in_conn s /\ in_sess (step s o) = in_sess s
  /\ keepalive_time (step s o) = keepalive_time s /\ sessinit_peer (step s o) = sessinit_peer s
  /\ seg_size (step s o) = seg_size s /\ rx_tmp (step s o) = rx_tmp s
  /\ handled (step s o) = handled s /\ rx_buf (step s o) = rx_buf s.
Proof.
  intros Ho. destruct (closed s) eqn:Hc; [rewrite step_closed by exact Hc; destruct o; repeat split|].
  destruct (step_spec s o Hc); try discriminate Ho; spec_cases; ep_cbn; repeat split.
Qed.

Lemma in_conn_step_o o s : not_rx o = true -> in_conn (step s o) = in_conn s.
Proof. apply same_step_o. Qed.
Lemma in_sess_step_o o s : not_rx o = true -> in_sess (step s o) = in_sess s.
Proof. apply same_step_o. Qed.
Lemma keepalive_time_step_o o s : not_rx o = true -> keepalive_time (step s o) = keepalive_time s.
Proof. apply same_step_o. Qed.
Lemma sessinit_peer_step_o o s : not_rx o = true -> sessinit_peer (step s o) = sessinit_peer s.
Proof. apply same_step_o. Qed.
Lemma seg_size_step_o o s : not_rx o = true -> seg_size (step s o) = seg_size s.
Proof. apply same_step_o. Qed.
Lemma rx_tmp_step_o o s : not_rx o = true -> rx_tmp (step s o) = rx_tmp s.
Proof. apply same_step_o. Qed.
Lemma handled_step_o o s : not_rx o = true -> handled (step s o) = handled s.
Proof. apply same_step_o. Qed.
Lemma rx_buf_step_o o s : not_rx o = true -> rx_buf (step s o) = rx_buf s.
Proof. apply same_step_o. Qed.

Definition enc_frames (l : list frame) : bytes := concat (map encode_frame l).

Lemma enc_frames_app a b : enc_frames (a ++ b) = enc_frames a ++ enc_frames b.
Proof. unfold enc_frames. rewrite map_app, concat_app. reflexivity. Qed.

(** Every octet written or still buffered. *)
Definition octets (s : ep) : bytes := wire s ++ conn_tx s ++ msg_tx s.

Lemma app_mid_firstn_skipn (w c m : bytes) k : w ++ firstn k c ++ skipn k c ++ m = w ++ c ++ m.
Proof. rewrite (app_assoc (firstn k c)), firstn_skipn. reflexivity. Qed.

Lemma octets_tx_pull s : octets (tx_pull s) = octets s.
Proof.
  unfold octets, tx_pull. ep_cbn. destruct (_ <? CHUNK); [|reflexivity].
  rewrite <- app_assoc, firstn_skipn. reflexivity.
Qed.

Lemma octets_written k s :
  octets (s <| wire := wire s ++ firstn k (conn_tx s) |> <| conn_tx := skipn k (conn_tx s) |>) = octets s.
Proof. destruct s. unfold octets. cbn. rewrite <- app_assoc. apply app_mid_firstn_skipn. Qed.

(** The transmit pump only moves octets towards the wire. *)
Lemma octets_txp a s r : txp_spec a s r -> octets (fst r) = octets s.
Proof.
  assert (Hw : wire (tx_pull s) = wire s) by reflexivity.
  assert (Hd : forall s1, octets (do_close' s1) = octets s1) by (destruct s1; reflexivity).
  destruct 1; cbn [fst]; rewrite <- ?Hw, ?Hd, ?octets_written; apply octets_tx_pull.
Qed.

Lemma sent_octets_step o s : closed s = false -> not_rx o = true ->
  sent (step s o) = sent s ++ out_op o s /\ octets (step s o) = octets s ++ enc_frames (out_op o s).
Proof.
  intros Hc Ho. destruct (step_spec s o Hc); try discriminate Ho.
  (* the pump first: it only moves octets towards the wire ([octets_txp]), which
     computing the fields case by case would not show *)
  all: try match goal with H : txp_spec _ _ _ |- _ =>
    cbn [out_op enc_frames map concat]; rewrite !app_nil_r; split; [destruct H; reflexivity|exact (octets_txp _ _ _ H)] end.
  all: op_cases; unfold octets, enc_frames; ep_cbn; out_leaf; cbn [map concat app];
    rewrite ?app_nil_r, <- ?app_assoc; try (split; reflexivity); congruence.
Qed.

Lemma sent_step o s : closed s = false -> not_rx o = true -> sent (step s o) = sent s ++ out_op o s.
Proof. apply sent_octets_step. Qed.

Lemma wire_trace_step_o o s : closed s = false -> not_rx o = true ->
  (exists w, wire (step s o) = wire s ++ w) /\ (exists t, trace (step s o) = trace s ++ t).
Proof.
  intros Hc Ho. destruct (step_spec s o Hc); try discriminate Ho; spec_cases; ep_cbn; rewrite ?Hc;
    (split; [app_ex_tac|ext_leaf]).
Qed.

Definition Grown (s s' : ep) : Prop :=
  cf s' = cf s
  /\ (exists x, sent s' = sent s ++ x /\ octets s' = octets s ++ enc_frames x)
  /\ (exists w, wire s' = wire s ++ w)
  /\ (exists t, trace s' = trace s ++ t)
  /\ (exists h, handled s' = handled s ++ h).

Lemma Grown_ext s s' t h : cf s' = cf s -> wire s' = wire s -> conn_tx s' = conn_tx s -> sent s' = sent s ->
  msg_tx s' = msg_tx s -> trace s' = trace s ++ t -> handled s' = handled s ++ h -> Grown s s'.
Proof.
  intros Hc Hw Hx Hs Hm Ht Hh. unfold Grown, octets. rewrite Hc, Hw, Hx, Hs, Hm.
  repeat split; [exists []|exists []|exists t|exists h]; cbn; rewrite ?app_nil_r; auto.
Qed.

Lemma Grown_refl s : Grown s s.
Proof. apply (Grown_ext s s [] []); rewrite ?app_nil_r; reflexivity. Qed.

Lemma Grown_trans s1 s2 s3 : Grown s1 s2 -> Grown s2 s3 -> Grown s1 s3.
Proof.
  unfold Grown. intros (a1&(x&a2&a3)&(w&a4)&(t&a5)&(h&a6)) (b1&(y&b2&b3)&(v&b4)&(u&b5)&(k&b6)).
  split; [congruence|]. split; [|split; [|split]].
  - exists (x ++ y). rewrite b2, b3, a2, a3, enc_frames_app, <- !app_assoc. split; reflexivity.
  - exists (w ++ v). rewrite b4, a4, <- app_assoc. reflexivity.
  - exists (t ++ u). rewrite b5, a5, <- app_assoc. reflexivity.
  - exists (h ++ k). rewrite b6, a6, <- app_assoc. reflexivity.
Qed.

(* A handled frame appends to [sent] and the encodings to [msg_tx]. *)
Lemma Grown_recv_frame f s : Grown s (fst (recv_frame f s)).
Proof.
  unfold Grown, octets. rewrite cf_recv_frame, handled_recv_frame. destruct (same_recv_frame f s) as (->&->&_).
  repeat split.
  - destruct f as [c|m];
      [destruct (sent_and_msg_tx_recv_contact c s) as [-> ->]|destruct (sent_and_msg_tx_recv_msg m s) as [-> ->]];
      eexists; (split; [reflexivity|]); rewrite <- !app_assoc; reflexivity.
  - exists []. symmetry. apply app_nil_r.
  - apply trace_recv_frame.
  - exists []. symmetry. apply app_nil_r.
Qed.

Lemma Grown_step s o : Grown s (step s o).
Proof.
  apply (step_ind_at (Grown s) (Grown s)); try (intros; assumption).
  - apply Grown_refl.
  - intros dt. apply (Grown_ext _ _ [] []); rewrite ?app_nil_r; reflexivity.
  - intros Hc Ho. assert (Hn : not_rx o = true) by (destruct o; try reflexivity; discriminate Ho).
    unfold Grown. split; [apply step_cf|]. split; [|split; [|split]].
    + exists (out_op o s). apply sent_octets_step; assumption.
    + apply wire_trace_step_o; assumption.
    + apply wire_trace_step_o; assumption.
    + exists []. rewrite app_nil_r. apply handled_step_o, Hn.
  - intros data _ _. apply (Grown_ext _ _ [] []); rewrite ?app_nil_r; reflexivity.
  - intros s0 fr rest H0 _ _. eapply Grown_trans; [exact H0|]. eapply Grown_trans; [|apply Grown_recv_frame].
    apply (Grown_ext _ _ [] [fr]); rewrite ?app_nil_r; reflexivity.
  - intros s' k H. eapply Grown_trans; [exact H|]. apply (Grown_ext _ _ [EExc k] []); rewrite ?app_nil_r; reflexivity.
Qed.

(** Every observation sequence only grows. *)
Theorem step_mono s o :
  (exists x, sent (step s o) = sent s ++ x) /\ (exists w, wire (step s o) = wire s ++ w)
  /\ (exists t, trace (step s o) = trace s ++ t) /\ (exists h, handled (step s o) = handled s ++ h).
Proof.
  destruct (Grown_step s o) as (_&(x&Hx&_)&Hw&Ht&Hh). split; [exists x; exact Hx|]. auto.
Qed.

(** Every octet written or buffered is the encoding of the frames passed
    to [send_message], in order. *)
Theorem sent_accounting c ops :
  let s := run c ops in wire s ++ conn_tx s ++ msg_tx s = concat (map encode_frame (sent s)).
Proof.
  cbv zeta. apply (run_invariant (fun s => octets s = enc_frames (sent s))); [reflexivity|].
  intros s o H. destruct (Grown_step s o) as (_&(x&Hx&Ho)&_). rewrite Ho, Hx, enc_frames_app, H. reflexivity.
Qed.

Definition is_sess_term (f : frame) : bool :=
  match f with FMsg (MSessTerm _ _) => true | _ => false end.

Lemma in_term_step_o o s : closed s = false -> not_rx o = true ->
  in_term (step s o) = in_term s || existsb is_sess_term (out_op o s).
Proof.
  intros Hc Ho. destruct (step_spec s o Hc); try discriminate Ho; op_cases; ep_cbn; out_leaf;
    cbn [existsb is_sess_term orb seg_msg]; rewrite ?orb_false_r; try reflexivity; try congruence.
Qed.

Lemma conhead_this_step_o o s : closed s = false -> not_rx o = true ->
  conhead_this (step s o) = conhead_this s \/ (conhead_this (step s o) = Some 0 /\ out_op o s = [our_contact]).
Proof.
  intros Hc Ho. destruct (step_spec s o Hc); try discriminate Ho; spec_cases; ep_cbn; auto.
  right. out_leaf. split; reflexivity.
Qed.

Lemma state_step_o o s : closed s = false -> not_rx o = true ->
  state (step s o) = ST_CONNECTING -> state s = ST_CONNECTING.
Proof.
  intros Hc Ho. destruct (step_spec s o Hc); try discriminate Ho; spec_cases; ep_cbn; auto; discriminate.
Qed.

Lemma state_step_start s : closed s = false -> out_op OStart s <> [] -> state (step s OStart) <> ST_CONNECTING.
Proof.
  intros Hc. remember OStart as o eqn:Eo.
  destruct (step_spec s o Hc); try discriminate Eo; out_leaf; ep_cbn; try congruence. discriminate.
Qed.

Lemma tx_tmp_step_o o s : closed s = false -> not_rx o = true ->
  tx_tmp (step s o) <> None -> tx_tmp s <> None \/ in_sess s = true.
Proof.
  intros Hc Ho. destruct (step_spec s o Hc); try discriminate Ho; op_cases; ep_cbn; auto; left; congruence.
Qed.

Lemma ka_due_step_o o s : closed s = false -> not_rx o = true -> (ka_due s <> None -> keepalive_time s <> 0) ->
  ka_due (step s o) <> None -> keepalive_time (step s o) <> 0.
Proof.
  intros Hc Ho H. destruct (step_spec s o Hc); try discriminate Ho; spec_cases; ep_cbn; try exact H; try congruence; apply ka_armed.
Qed.

Lemma next_id_step_o o s : closed s = false -> not_rx o = true ->
  next_id (step s o) = match o with OSend _ => if in_term s then next_id s else next_id s + 1 | _ => next_id s end.
Proof.
  intros Hc Ho. destruct (step_spec s o Hc); try discriminate Ho; spec_cases; ep_cbn;
    try match goal with E : in_term s = _ |- context [in_term s] => rewrite E end; reflexivity.
Qed.

(** What an operation other than a read does to the queue of unstarted
    transfers: a close empties it, the start of a transfer takes its head,
    [send_bundle_data] appends to it. *)
Lemma pend_start_step_o_cases o s : not_rx o = true ->
  let p := pend_start (step s o) in
  p = pend_start s \/ p = [] \/ (exists it, pend_start s = it :: p)
  \/ exists d, o = OSend d /\ in_term s = false /\ p = pend_start s ++ [(next_id s, d)].
Proof.
  intros Ho. cbv zeta. destruct (closed s) eqn:Hc; [rewrite step_closed by exact Hc; destruct o; auto|].
  destruct (step_spec s o Hc); try discriminate Ho; spec_cases; ep_cbn; rewrite ?Hc; eauto 7.
Qed.

Lemma pend_start_step_o (P : N * bytes -> Prop) o s : not_rx o = true ->
  Forall P (pend_start s) -> (forall d, o = OSend d -> in_term s = false -> P (next_id s, d)) ->
  Forall P (pend_start (step s o)).
Proof.
  intros Ho H Hs. destruct (pend_start_step_o_cases o s Ho) as [E|[E|[[it E]|(d&Eo&Ht&E)]]].
  - rewrite E. exact H.
  - rewrite E. constructor.
  - rewrite E in H. exact (Forall_inv_tail H).
  - rewrite E. apply Forall_app. split; [exact H|]. repeat constructor. apply Hs; assumption.
Qed.

Lemma tx_tmp_step_o_origin o s it : not_rx o = true ->
  tx_tmp (step s o) = Some it -> tx_tmp s = Some it \/ In it (pend_start s).
Proof.
  intros Ho. destruct (closed s) eqn:Hc; [rewrite step_closed by exact Hc; destruct o; auto|].
  destruct (step_spec s o Hc); try discriminate Ho; spec_cases; ep_cbn; intros E;
    try (left; exact E); try discriminate E;
    right; match goal with E : pend_start s = _ |- _ => rewrite E end; left; congruence.
Qed.
