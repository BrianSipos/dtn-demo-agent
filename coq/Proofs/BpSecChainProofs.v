(** The failure list of a verification step depends on the blocks alone ([failures]); the view the step
    leaves has a closed form when every block verifies, one with acceptance on ([verify_all_accept]) and
    one with it off ([verify_all_keep]).  Fail-closed and pass-through of the chain follow (property C12). *)
From Coq Require Import NArith List Bool.
From DTN Require Import Model.BpSecChain.
Import ListNotations.
Local Open Scope N_scope.

Definition vres_of (r : option (option N * list N)) : vres :=
  match r with None => VRaised | Some (Some x, _) => VCode x | Some (None, _) => VNone end.

Lemma run_tgts_verdict : forall a b tg d, vres_of (snd (run_tgts a b tg d)) = tgts_result tg.
Proof.
  intros a b tg. induction tg as [|[t [p|c|]] rest IH]; intro d; cbn [run_tgts tgts_result]; try reflexivity.
  - rewrite <- (IH (if a && b then set_btsd t p d else d)).
    destruct (run_tgts a b rest _) as [d' [[f kept]|]]; reflexivity.
  - rewrite <- (IH d). destruct (run_tgts a b rest d) as [d' [[[x|] kept]|]]; reflexivity.
Qed.

Lemma verify_block_result : forall c s v, snd (verify_block c s v) = blk_result s.
Proof.
  intros c s v. unfold verify_block, blk_result.
  destruct (negb (s_ctx s)); [reflexivity|]. destruct (s_pre s); try reflexivity.
  rewrite <- (run_tgts_verdict (accept_after_verify c) (s_bcb s) (s_tgts s) (v_data v)).
  destruct (run_tgts _ _ _ _) as [d [[[x|] kept]|]]; reflexivity.
Qed.

(** The [failure] list of a verification step: one code per block that does not verify, in block order. *)
Definition failures (l : list secblk) : list N :=
  fold_right (fun s rs => push (blk_result s) rs) [] l.

Lemma verify_all_failures : forall c l v, snd (verify_all c l v) = failures l.
Proof.
  intros c l. induction l as [|s rest IH]; intro v; cbn [verify_all failures fold_right].
  - reflexivity.
  - fold (failures rest). rewrite <- (verify_block_result c s v). destruct (verify_block c s v) as [v1 r].
    rewrite <- (IH v1). destruct (verify_all c rest v1) as [v2 rs]. reflexivity.
Qed.

Lemma step_code_none : forall r, step_code r = None <-> r = VNone.
Proof. intros [|code|]; cbn; split; intros; congruence. Qed.

Lemma failures_nil : forall l, failures l = [] <-> (forall s, In s l -> blk_result s = VNone).
Proof.
  induction l as [|s rest IH]; cbn [failures fold_right].
  - split; [intros _ x []|reflexivity].
  - fold (failures rest). unfold push. destruct (step_code (blk_result s)) eqn:E.
    + split; [discriminate|]. intro H. specialize (H s (or_introl eq_refl)).
      apply step_code_none in H. congruence.
    + apply step_code_none in E. rewrite IH. split.
      * intros H x [<-|Hx]; [exact E|apply H, Hx].
      * intros H x Hx. apply H. right. exact Hx.
Qed.

Lemma failures_in : forall l code,
  In code (failures l) -> exists s, In s l /\ step_code (blk_result s) = Some code.
Proof.
  induction l as [|s rest IH]; intros code H; [destruct H|].
  cbn [failures fold_right] in H. fold (failures rest) in H. unfold push in H.
  destruct (step_code (blk_result s)) eqn:E.
  - destruct H as [<-|H].
    + exists s. split; [left; reflexivity|exact E].
    + destruct (IH code H) as [x [Hx Ex]]. exists x. split; [right; exact Hx|exact Ex].
  - destruct (IH code H) as [x [Hx Ex]]. exists x. split; [right; exact Hx|exact Ex].
Qed.

Lemma max_code_none : forall l, max_code l = None <-> l = [].
Proof. intros [|r rest]; cbn; split; intros; congruence. Qed.

Lemma max_code_in : forall l m, max_code l = Some m -> In m l.
Proof.
  induction l as [|code rest IH]; intros m Hm; [discriminate|]. cbn [max_code] in Hm.
  destruct (max_code rest) as [x|]; injection Hm as <-; [|left; reflexivity].
  destruct (N.max_spec code x) as [[_ ->]|[_ ->]]; [right; apply IH|left]; reflexivity.
Qed.

Lemma sec_step_unfold : forall c bcb secs st,
  c_deliver st = true ->
  sec_step c bcb secs st =
  conclude st (fst (verify_all c (of_kind bcb secs) (c_view st))) (failures (of_kind bcb secs)).
Proof.
  intros c bcb secs st Hd. unfold sec_step. rewrite Hd. cbn [negb].
  rewrite <- (verify_all_failures c (of_kind bcb secs) (c_view st)).
  destruct (verify_all c (of_kind bcb secs) (c_view st)) as [v fl]. reflexivity.
Qed.

Lemma in_of_kind : forall bcb secs s,
  In s (of_kind bcb secs) <-> In s secs /\ s_visible s = true /\ s_bcb s = bcb.
Proof.
  intros bcb secs s. unfold of_kind. rewrite filter_In. rewrite andb_true_iff, Bool.eqb_true_iff. tauto.
Qed.

(** A step whose blocks all verify changes neither 'deliver' nor 'delete' and lets the chain go on. *)
Lemma sec_step_clean : forall c bcb secs st,
  c_deliver st = true -> failures (of_kind bcb secs) = [] ->
  sec_step c bcb secs st =
  (mkCS true (c_delete st) (fst (verify_all c (of_kind bcb secs) (c_view st))), Continue).
Proof.
  intros c bcb secs st Hd Hf. rewrite sec_step_unfold by exact Hd. rewrite Hf.
  unfold conclude. cbn [max_code]. rewrite Hd. reflexivity.
Qed.

(** A step with a block that does not verify removes 'deliver', records 'delete' with the largest code
    of the step and stops the chain. *)
Lemma sec_step_dirty : forall c bcb secs st,
  c_deliver st = true -> failures (of_kind bcb secs) <> [] ->
  exists v m, sec_step c bcb secs st = (mkCS false (Some m) v, Interrupt)
              /\ max_code (failures (of_kind bcb secs)) = Some m.
Proof.
  intros c bcb secs st Hd Hf. rewrite sec_step_unfold by exact Hd. unfold conclude.
  destruct (failures (of_kind bcb secs)); [congruence|]. cbn [max_code]. eauto.
Qed.

(** The code recorded when some visible block does not verify: the largest code of the first step
    (BCBs, then BIBs) that has such a block. *)
Lemma deleted_with_max : forall c secs data,
  (exists s, In s secs /\ s_visible s = true /\ blk_result s <> VNone) ->
  exists bcb m,
    max_code (failures (of_kind bcb secs)) = Some m
    /\ r_reached (recv_sec c secs data) = false /\ r_app (recv_sec c secs data) = None
    /\ r_out (recv_sec c secs data) = Deleted m.
Proof.
  intros c secs data [s [Hin [Hvis Hbad]]].
  unfold recv_sec, chain.
  set (st0 := mkCS true None (view_of secs data)).
  destruct (failures (of_kind true secs)) as [|r rest] eqn:F1.
  - rewrite (sec_step_clean c true secs st0 eq_refl F1).
    set (st1 := mkCS true (c_delete st0) _).
    assert (F2 : failures (of_kind false secs) <> []).
    { intro F2. rewrite failures_nil in F1, F2. apply Hbad.
      destruct (s_bcb s) eqn:K; [apply F1|apply F2]; apply in_of_kind; auto. }
    destruct (sec_step_dirty c false secs st1 eq_refl F2) as [v [m [E Em]]].
    rewrite E. exists false, m. cbn. auto.
  - destruct (sec_step_dirty c true secs st0 eq_refl) as [v [m [E Em]]]; [rewrite F1; discriminate|].
    rewrite E. exists true, m. cbn. auto.
Qed.

(** For any number and order of blocks: one visible block that does not verify and the bundle is not
    delivered but marked deleted. *)
Theorem never_delivered : forall c secs data,
  (exists s, In s secs /\ s_visible s = true /\ blk_result s <> VNone) ->
  r_reached (recv_sec c secs data) = false /\ r_app (recv_sec c secs data) = None
  /\ exists code, r_out (recv_sec c secs data) = Deleted code.
Proof.
  intros c secs data H. destruct (deleted_with_max c secs data H) as [bcb [m [_ [H1 [H2 H3]]]]].
  split; [exact H1|]. split; [exact H2|]. exists m. exact H3.
Qed.

(** ... and the reason is a security reason, whether the context answered a code or an exception escaped it.
    The second premise is an assumption on the input: the contexts answer codes 12..16 only (a [TFail c] or
    [PreFail c] of the model is otherwise free). *)
Theorem fail_closed : forall c secs data,
  (exists s, In s secs /\ s_visible s = true /\ blk_result s <> VNone) ->
  (forall s code, In s secs -> s_visible s = true -> blk_result s = VCode code -> sec_reason code = true) ->
  r_reached (recv_sec c secs data) = false /\ r_app (recv_sec c secs data) = None
  /\ exists code, r_out (recv_sec c secs data) = Deleted code /\ 12 <= code <= 16.
Proof.
  intros c secs data H Hcodes. destruct (deleted_with_max c secs data H) as [bcb [m [Em [H1 [H2 H3]]]]].
  split; [exact H1|]. split; [exact H2|]. exists m. split; [exact H3|].
  assert (Hm : sec_reason m = true).
  { (* the recorded code is the code of one block of the step *)
    destruct (failures_in _ _ (max_code_in _ _ Em)) as [x [Hx Ex]]. apply in_of_kind in Hx as [Hx [Hv _]].
    destruct (blk_result x) as [|k|] eqn:R; cbn [step_code] in Ex.
    - discriminate.
    - inversion Ex; subst k. eapply Hcodes; eauto.
    - inversion Ex; subst m. reflexivity. }
  apply andb_true_iff in Hm as [Lo Hi]. split; apply N.leb_le; assumption.
Qed.

Lemma run_tgts_ok : forall a b tg d,
  tgts_result tg = VNone ->
  run_tgts a b tg d =
  (if a && b then fold_left (fun d' tp => set_btsd (fst tp) (snd tp) d') (plains tg) d else d,
   Some (None, if a then [] else map fst tg)).
Proof.
  intros a b tg. induction tg as [|[t [p|code|]] rest IH]; intros d H; cbn [tgts_result] in H.
  - cbn. destruct (a && b), a; reflexivity.
  - cbn [run_tgts]. rewrite IH by exact H.
    unfold plains. cbn [flat_map snd fst app fold_left map].
    destruct (a && b), a; reflexivity.
  - destruct (tgts_result rest); discriminate.
  - discriminate.
Qed.

Lemma verify_block_ok : forall c s v,
  blk_result s = VNone ->
  verify_block c s v =
  (mkView (if accept_after_verify c && s_bcb s then decrypt_block (v_data v) s else v_data v)
          (set_targets (s_num s) (if accept_after_verify c then [] else map fst (s_tgts s)) (v_secs v)),
   VNone).
Proof.
  intros c s v H. unfold blk_result in H. unfold verify_block.
  destruct (negb (s_ctx s)); [discriminate|]. destruct (s_pre s); try discriminate.
  rewrite run_tgts_ok by exact H. reflexivity.
Qed.

Definition removed (nums : list N) (sv : secview) : secview :=
  filter (fun e => negb (existsb (N.eqb (fst e)) nums)) sv.

Lemma removed_nil : forall sv, removed [] sv = sv.
Proof.
  intro sv. unfold removed. cbn. induction sv as [|e sv IH]; [reflexivity|]. cbn. rewrite IH. reflexivity.
Qed.

Lemma removed_cons : forall n nums sv,
  removed nums (filter (fun e => negb (fst e =? n)) sv) = removed (n :: nums) sv.
Proof.
  intros n nums sv. unfold removed. induction sv as [|e sv IH]; [reflexivity|].
  cbn [filter existsb]. destruct (fst e =? n) eqn:E; cbn [negb orb].
  - exact IH.
  - cbn [filter]. rewrite IH. reflexivity.
Qed.

Lemma verify_all_accept : forall c l v,
  accept_after_verify c = true ->
  (forall s, In s l -> blk_result s = VNone) ->
  verify_all c l v =
  (mkView (fold_left (fun d s => if s_bcb s then decrypt_block d s else d) l (v_data v))
          (removed (map s_num l) (v_secs v)), []).
Proof.
  intros c l. induction l as [|s rest IH]; intros v Ha Hok.
  - cbn. rewrite removed_nil. destruct v; reflexivity.
  - cbn [verify_all]. rewrite verify_block_ok by (apply Hok; left; reflexivity).
    rewrite Ha. cbn [andb set_targets].
    rewrite IH; [|exact Ha|intros x Hx; apply Hok; right; exact Hx].
    cbn [v_data v_secs fold_left map]. rewrite removed_cons. reflexivity.
Qed.

Lemma fold_one_kind : forall k l d,
  (forall s, In s l -> s_bcb s = k) ->
  fold_left (fun d s => if s_bcb s then decrypt_block d s else d) l d = if k then fold_left decrypt_block l d else d.
Proof.
  intros k. induction l as [|s rest IH]; intros d H; [destruct k; reflexivity|].
  cbn [fold_left]. rewrite (H s (or_introl eq_refl)), IH by (intros x Hx; apply H; right; exact Hx).
  destruct k; reflexivity.
Qed.

Lemma removed_removed : forall a b sv, removed a (removed b sv) = removed (b ++ a) sv.
Proof.
  intros a b sv. unfold removed. induction sv as [|e sv IH]; [reflexivity|].
  cbn [filter]. rewrite existsb_app. destruct (existsb (N.eqb (fst e)) b); cbn [negb orb filter]; rewrite IH; reflexivity.
Qed.

Lemma removed_covered : forall nums sv, (forall e, In e sv -> In (fst e) nums) -> removed nums sv = [].
Proof.
  intros nums sv H. unfold removed. induction sv as [|e sv IH]; [reflexivity|]. cbn [filter].
  replace (existsb (N.eqb (fst e)) nums) with true.
  - apply IH. intros x Hx. apply H. right. exact Hx.
  - symmetry. apply existsb_exists. exists (fst e). split; [apply H; left; reflexivity|apply N.eqb_refl].
Qed.

Definition entry (s : secblk) : N * list N := (s_num s, map fst (s_tgts s)).

Lemma view_of_entry : forall secs data, view_of secs data = mkView data (map entry (filter s_visible secs)).
Proof. reflexivity. Qed.

(** every visible block is of one of the two kinds *)
Lemma removed_all : forall secs,
  removed (map s_num (of_kind false secs))
          (removed (map s_num (of_kind true secs))
                   (map entry (filter s_visible secs))) = [].
Proof.
  intro secs. rewrite removed_removed. apply removed_covered. intros e He.
  apply in_map_iff in He as (s & <- & Hs). apply filter_In in Hs as [Hs Hv]. cbn [entry fst].
  apply in_or_app. destruct (s_bcb s) eqn:K; [left|right]; apply in_map, in_of_kind; auto.
Qed.

Lemma of_kind_ok : forall secs,
  (forall s, In s secs -> s_visible s = true -> blk_result s = VNone) ->
  forall bcb s, In s (of_kind bcb secs) -> blk_result s = VNone.
Proof. intros secs H bcb s Hs. apply in_of_kind in Hs as [Hs [Hv _]]. auto. Qed.

Lemma recv_sec_clean : forall c secs data v,
  (forall s, In s secs -> s_visible s = true -> blk_result s = VNone) ->
  fst (verify_all c (of_kind false secs) (fst (verify_all c (of_kind true secs) (view_of secs data)))) = v ->
  recv_sec c secs data = mkRes true (Some (btsd_of PAYLOAD_NUM (v_data v), v))
                               (Delivered (btsd_of PAYLOAD_NUM (v_data v)) v).
Proof.
  intros c secs data v Hok <-. unfold recv_sec, chain.
  rewrite !sec_step_clean by (reflexivity || apply failures_nil, of_kind_ok, Hok). reflexivity.
Qed.

Theorem pass_through_accept : forall c secs data,
  accept_after_verify c = true ->
  (forall s, In s secs -> s_visible s = true -> blk_result s = VNone) ->
  let v := mkView (decrypted secs data) [] in
  recv_sec c secs data = mkRes true (Some (btsd_of PAYLOAD_NUM (v_data v), v))
                               (Delivered (btsd_of PAYLOAD_NUM (v_data v)) v).
Proof.
  intros c secs data Ha Hok v. apply recv_sec_clean; [exact Hok|].
  rewrite (verify_all_accept c (of_kind true secs)) by (exact Ha || apply of_kind_ok, Hok).
  cbn [fst].
  rewrite (verify_all_accept c (of_kind false secs)) by (exact Ha || apply of_kind_ok, Hok).
  rewrite view_of_entry. cbn [fst v_data v_secs].
  rewrite (fold_one_kind false (of_kind false secs)) by (intros s Hs; apply in_of_kind in Hs; tauto).
  rewrite (fold_one_kind true (of_kind true secs)) by (intros s Hs; apply in_of_kind in Hs; tauto).
  rewrite removed_all. reflexivity.
Qed.

Lemma set_targets_id : forall s sv,
  s_tgts s <> [] ->
  (forall e, In e sv -> fst e = s_num s -> e = entry s) ->
  set_targets (s_num s) (map fst (s_tgts s)) sv = sv.
Proof.
  intros s sv Hne Hu. unfold set_targets.
  destruct (map fst (s_tgts s)) eqn:E.
  - destruct (s_tgts s); [congruence|discriminate].
  - rewrite <- E. clear E. induction sv as [|e sv IH]; [reflexivity|].
    cbn [map]. rewrite IH by (intros x Hx; apply Hu; right; exact Hx).
    destruct (fst e =? s_num s) eqn:K.
    + apply N.eqb_eq in K. rewrite (Hu e (or_introl eq_refl) K). reflexivity.
    + reflexivity.
Qed.

Lemma verify_all_keep : forall c l v,
  accept_after_verify c = false ->
  (forall s, In s l -> blk_result s = VNone /\ s_tgts s <> []
                        /\ (forall e, In e (v_secs v) -> fst e = s_num s -> e = entry s)) ->
  verify_all c l v = (v, []).
Proof.
  intros c l. induction l as [|s rest IH]; intros v Ha H; [reflexivity|].
  destruct (H s (or_introl eq_refl)) as [Hr [Hne Hu]].
  cbn [verify_all]. rewrite verify_block_ok by exact Hr. rewrite Ha. cbn [andb].
  rewrite set_targets_id by assumption.
  assert (E : mkView (v_data v) (v_secs v) = v) by (destruct v; reflexivity). rewrite E.
  rewrite IH; [reflexivity|exact Ha|intros x Hx; apply H; right; exact Hx].
Qed.

Lemma nodup_entry : forall l s e,
  NoDup (map s_num l) -> In s l -> In e (map entry l) -> fst e = s_num s -> e = entry s.
Proof.
  induction l as [|x rest IH]; intros s e Hnd Hs He Hf; [destruct Hs|].
  cbn [map] in *. inversion Hnd as [|? ? Hnot Hnd']; subst.
  destruct Hs as [->|Hs]; destruct He as [<-|He].
  - reflexivity.
  - exfalso. apply Hnot. apply in_map_iff in He. destruct He as [y [<- Hy]].
    cbn [entry fst] in Hf. rewrite <- Hf. apply in_map. exact Hy.
  - exfalso. apply Hnot. cbn [entry fst] in Hf. rewrite Hf. apply in_map. exact Hs.
  - apply IH; assumption.
Qed.

Theorem pass_through_keep : forall c secs data,
  accept_after_verify c = false ->
  NoDup (map s_num (filter s_visible secs)) ->
  (forall s, In s secs -> s_visible s = true -> s_tgts s <> []) ->
  (forall s, In s secs -> s_visible s = true -> blk_result s = VNone) ->
  let v := view_of secs data in
  recv_sec c secs data = mkRes true (Some (btsd_of PAYLOAD_NUM data, v)) (Delivered (btsd_of PAYLOAD_NUM data) v).
Proof.
  intros c secs data Ha Hnd Hne Hok v.
  assert (Hk : forall bcb s, In s (of_kind bcb secs) ->
            blk_result s = VNone /\ s_tgts s <> []
            /\ (forall e, In e (v_secs v) -> fst e = s_num s -> e = entry s)).
  { intros bcb s Hs. apply in_of_kind in Hs. destruct Hs as [Hs [Hv _]].
    split; [auto|]. split; [auto|].
    intros e He Hf. unfold v in He. rewrite view_of_entry in He.
    apply (nodup_entry (filter s_visible secs)); try assumption.
    apply filter_In. auto. }
  apply (recv_sec_clean c secs data v); [exact Hok|].
  rewrite (verify_all_keep c (of_kind true secs)) by (exact Ha || apply (Hk true)).
  cbn [fst]. rewrite (verify_all_keep c (of_kind false secs)) by (exact Ha || apply (Hk false)). reflexivity.
Qed.

Theorem no_security_blocks : forall c data,
  recv_sec c [] data =
  mkRes true (Some (btsd_of PAYLOAD_NUM data, mkView data [])) (Delivered (btsd_of PAYLOAD_NUM data) (mkView data [])).
Proof. intros c data. reflexivity. Qed.

(** a type-11 block whose BTSD does not dissect (it would not even verify), block 1 = payload *)
Definition w_invisible : list secblk := [mkSec false 2 false true PreOk [(1, TFail FAILED_SEC)]].
Definition w_data : datamap := [(2, 7); (5, 6); (1, 9)].

Lemma invisible_refuted :
  exists c secs data,
    (exists s, In s secs /\ s_visible s = false)
    /\ exists p v, r_out (recv_sec c secs data) = Delivered p v /\ r_app (recv_sec c secs data) = Some (p, v).
Proof.
  exists (mkCfg false), w_invisible, w_data. split.
  - eexists. split; [left; reflexivity|reflexivity].
  - eexists _, _. vm_compute. split; reflexivity.
Qed.

(** two BIBs, the first verifies and is accepted (removed), the second does not verify *)
Definition w_second_bad : list secblk :=
  [mkSec false 2 true true PreOk [(1, TOk 0)]; mkSec false 3 true true PreOk [(5, TFail FAILED_SEC)]].

Lemma live_iteration_refuted :
  exists c secs data,
    (exists s, In s secs /\ s_visible s = true /\ blk_result s <> VNone)
    /\ (exists p v, r_out (recv_sec_live c secs data) = Delivered p v)
    /\ r_out (recv_sec c secs data) = Deleted FAILED_SEC.
Proof.
  exists (mkCfg true), w_second_bad, [(5, 6); (1, 9)]. split; [|split].
  - eexists. split; [right; left; reflexivity|]. split; [reflexivity|]. vm_compute. discriminate.
  - eexists _, _. vm_compute. reflexivity.
  - reflexivity.
Qed.

Theorem verdict_ignores_slot : forall (open : N -> N -> option N) data t auth slot1 slot2,
  target_verdict open data t (mkMsg auth slot1) = target_verdict open data t (mkMsg auth slot2).
Proof. intros. reflexivity. Qed.

Theorem verdict_on_current_data : forall (open : N -> N -> option N) data t m,
  target_verdict open data t m =
  match open (m_auth m) (btsd_of t data) with Some p => TOk p | None => TFail FAILED_SEC end.
Proof. intros. reflexivity. Qed.
