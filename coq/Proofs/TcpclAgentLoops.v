(** Agent.shutdown()/stop(): walking a list of handlers while closing a
    handler removes it from that very list.  Python's list iterator keeps an
    index into the live list, so after a removal at the current position the
    next element is skipped.  [walk_live] models that; [walk_snapshot] is the
    iteration over [tuple(self._handlers)]. *)
From Coq Require Import List.
Import ListNotations.

Section Walk.
  Variable H : Type.
  Variable closes : H -> bool.        (* does acting on this handler close (and so remove) it? *)

  Definition walk_snapshot (l : list H) : list H := l.

  (** index-based iteration over the live list, from index [i], at most [fuel]
      visits; the visited element is removed from the list iff [closes] *)
  Fixpoint walk_live (fuel i : nat) (l : list H) : list H :=
    match fuel with
    | O => []
    | S f =>
      match nth_error l i with
      | None => []
      | Some h =>
        if closes h
        then h :: walk_live f (S i) (firstn i l ++ skipn (S i) l)
        else h :: walk_live f (S i) l
      end
    end.

  Theorem snapshot_visits_all : forall l h, In h l -> In h (walk_snapshot l).
  Proof. intros l h Hin. exact Hin. Qed.
End Walk.

(** With the live list a handler is skipped as soon as an earlier one closes. *)
Theorem live_skips : exists (l : list nat) (closes : nat -> bool) (h : nat),
  In h l /\ ~ In h (walk_live nat closes (length l) 0 l).
Proof.
  exists [1; 2], (fun x => Nat.eqb x 1), 2. split; [cbn; auto|].
  cbn. intros [E|[]]. discriminate E.
Qed.
