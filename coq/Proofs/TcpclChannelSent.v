(** Sender side of the channel lemma for [Model/TcpclSess.v]: the accounting
    of the octets written ([sent_accounting], the theorem of
    TcpclSentProofs5.v over [enc]) and the channel lemma with that premise
    discharged ([channel_acc]); [enc], [shape] and [is_prefix] are those of
    TcpclChannelProofs.v.  [bal] is the accounting as a predicate of one
    state, with two facts about it that no theorem here needs. *)
From Coq Require Import NArith List Bool.
From DTN Require Import Lib.Bytes Model.TcpclMsg Model.TcpclSess Proofs.TcpclSessBasics
  Proofs.TcpclMsgProofs Proofs.TcpclChannelProofs.
From DTN Require Proofs.TcpclSentProofs5.
Import ListNotations.
Local Open Scope N_scope.

Definition tv (s : ep) := (wire s, conn_tx s, msg_tx s, sent s).
Definition balv (v : bytes * bytes * bytes * list frame) : Prop :=
  let '(w, c, m, snt) := v in w ++ c ++ m = enc snt.
Definition bal (s : ep) : Prop := balv (tv s).

Lemma tv_bal a b : tv a = tv b -> bal b -> bal a.
Proof. unfold bal. intros ->. auto. Qed.

Lemma bal_sbd n s : bal s -> bal (send_buffer_decreased n s).
Proof.
  unfold send_buffer_decreased, pq_trigger. destruct (_ <? _); [destruct (pq_set s)|]; exact (fun H => H).
Qed.

Theorem sent_accounting : forall c ops,
  wire (run c ops) ++ conn_tx (run c ops) ++ msg_tx (run c ops) = enc (sent (run c ops)).
Proof. exact TcpclSentProofs5.sent_accounting. Qed.

(** The channel lemma with the accounting premise discharged;
    [TcpclSentProofs16.channel_closed] discharges the other two as well, under
    bounds on the run. *)
Theorem channel_acc : forall cA opsA cB opsB,
  (exists rest, wire (run cA opsA) = received (init cB) opsB ++ rest) ->
  Forall wf_frame (sent (run cA opsA)) ->
  shape (sent (run cA opsA)) ->
  is_prefix (handled (run cB opsB)) (sent (run cA opsA)).
Proof.
  intros cA opsA cB opsB HW WF SH. apply channel; try assumption. apply sent_accounting.
Qed.
