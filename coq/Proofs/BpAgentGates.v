(** The admission gates of Agent.recv_bundle, in the order found in the source (Gen/RecvGates.v), against
    what Model/BpAgent.v's [recv_core] does before the RX chain runs. *)
From Coq Require Import NArith List Bool.
From DTN Require Import Gen.RecvGates Model.BpAgent Proofs.BpAgentProofs.
Import ListNotations.
Local Open Scope N_scope.

(** State of the walk through the gates: still admitted?, the agent (its seen list), 'receive' recorded? *)
Definition gate_state := (bool * agent * bool)%type.

(** One gate, as the source statement behaves: a gate that rejects returns from recv_bundle, so later gates
    have no effect; [GSeenRecord] adds the identity to the seen set whatever comes after it. *)
Definition gate_step (b : bundle) (st : gate_state) (g : gate) : gate_state :=
  let '(ok, a, rcv) := st in
  if negb ok then st
  else match g with
       | GCrc => (b_crc_ok b, a, rcv)
       | GOwnSource => (negb (b_src b =? a_node a), a, rcv)
       | GSeenTest => (negb (existsb (ident_eqb (ident_of b)) (a_seen a)), a, rcv)
       | GSeenRecord => (true, set_seen a (a_seen a ++ [ident_of b]), rcv)
       | GReceive => (true, a, true)
       end.

Definition run_gates (gates : list gate) (a : agent) (b : bundle) : gate_state :=
  fold_left (gate_step b) gates (true, a, false).

(** The gates of the source, in source order, let through exactly the bundles the model accepts, leave the agent
    untouched when they reject (in particular: a bundle failing the CRC gate is NOT recorded as seen), and
    record identity and 'receive' when they let it through. *)
Lemma run_gates_eq (a : agent) (b : bundle) :
  run_gates recv_gates a b =
  (accepted a b, (if accepted a b then set_seen a (a_seen a ++ [ident_of b]) else a), accepted a b).
Proof.
  unfold run_gates, recv_gates, accepted. cbn [fold_left].
  unfold gate_step. cbn [negb].
  destruct (b_crc_ok b); cbn [negb andb]; [|reflexivity].
  destruct (b_src b =? a_node a); cbn [negb andb]; [reflexivity|].
  destruct (existsb (ident_eqb (ident_of b)) (a_seen a)); reflexivity.
Qed.

Lemma gates_match_model (a : agent) (b : bundle) :
  let '(ok, a', rcv) := run_gates recv_gates a b in
  ok = accepted a b
  /\ rcv = accepted a b
  /\ a' = (if accepted a b then set_seen a (a_seen a ++ [ident_of b]) else a).
Proof. rewrite run_gates_eq. repeat split. Qed.

Lemma gates_reject_untouched (a : agent) (b : bundle) :
  fst (fst (run_gates recv_gates a b)) = false -> snd (fst (run_gates recv_gates a b)) = a.
Proof. rewrite run_gates_eq. cbn [fst snd]. intros ->. reflexivity. Qed.

Lemma gates_crc_first (a : agent) (b : bundle) :
  b_crc_ok b = false -> run_gates recv_gates a b = (false, a, false).
Proof. intros H. rewrite run_gates_eq. unfold accepted. rewrite H. reflexivity. Qed.

Lemma gates_recv_core (matches : N -> eid -> bool) (a : agent) (b : bundle) :
  a_seen (fst (fst (recv_core matches a b))) = a_seen (snd (fst (run_gates recv_gates a b)))
  /\ (fst (fst (run_gates recv_gates a b)) = false -> recv_core matches a b = (a, [], None)).
Proof.
  rewrite run_gates_eq. cbn [fst snd]. split; [|apply recv_core_rejected].
  rewrite recv_core_seen. destruct (accepted a b); reflexivity.
Qed.

(** Holds by computation on the generated list: its purpose is to fail when the order of the gates in the
    source changes. *)
Lemma gates_order : recv_gates = [GCrc; GOwnSource; GSeenTest; GSeenRecord; GReceive].
Proof. reflexivity. Qed.
