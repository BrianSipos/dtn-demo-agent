(** The sender of the BTP-U model: every frame within the MTU for all
    bundle lengths and MTUs, the segments tile the bundle, at least two
    segments when the bundle does not fit, and every frame built decodes to
    the message it was built from. *)
From Coq Require Import NArith List Bool Lia.
From DTN Require Import Lib.Bytes Model.Btpu Proofs.BtpuProofs.
Import ListNotations.
Local Open Scope N_scope.

Definition seg_idx (s : N * bytes * bool) : N := fst (fst s).
Definition seg_data (s : N * bytes * bool) : bytes := snd (fst s).
Definition seg_last (s : N * bytes * bool) : bool := snd s.

(** What a well-formed segment list looks like: consecutive indices from
    [idx], non-empty data, the end marker exactly on the last one. *)
Fixpoint shape (idx : N) (l : list (N * bytes * bool)) : Prop :=
  match l with
  | [] => True
  | s :: t => seg_idx s = idx /\ seg_data s <> [] /\ seg_last s = is_nil t /\ shape (idx + 1) t
  end.

Lemma chunk_nil fuel rs idx : chunk fuel rs [] idx = [].
Proof. destruct fuel; reflexivity. Qed.

(** The loop cuts the data still to send into consecutive non-empty slices
    of at most [rs] octets, numbered from [idx], the last one marked. *)
Lemma chunk_spec : forall fuel rs rem idx,
  (1 <= rs)%nat -> (length rem <= fuel)%nat ->
  shape idx (chunk fuel rs rem idx)
  /\ concat (map seg_data (chunk fuel rs rem idx)) = rem
  /\ Forall (fun s => (length (seg_data s) <= rs)%nat) (chunk fuel rs rem idx)
  /\ (length (chunk fuel rs rem idx) <= length rem)%nat.
Proof.
  induction fuel as [|f IH]; intros rs rem idx Hrs Hf.
  - destruct rem; [repeat split; constructor|cbn [length] in Hf; lia].
  - destruct rem as [|x r]; [repeat split; constructor|].
    pose proof (skipn_length rs (x :: r)) as Hlen. cbn [length] in Hlen, Hf.
    destruct (IH rs (skipn rs (x :: r)) (idx + 1) Hrs ltac:(lia)) as (Hs & Hc & Hd & Hl).
    cbn [chunk]. split; [|split; [|split]].
    + cbn [shape]. unfold seg_idx, seg_data, seg_last. cbn [fst snd].
      split; [reflexivity|]. split; [destruct rs; [lia|discriminate]|]. split; [|exact Hs].
      destruct (skipn rs (x :: r)) as [|y r'].
      * rewrite chunk_nil. reflexivity.
      * destruct f; [cbn [length] in Hlen; lia|]. reflexivity.
    + cbn [map concat]. unfold seg_data at 1. cbn [fst snd]. rewrite Hc. apply firstn_skipn.
    + constructor; [apply firstn_le_length|exact Hd].
    + cbn [length]. lia.
Qed.

Lemma shape_bounds : forall l idx,
  shape idx l ->
  Forall (fun s => idx <= seg_idx s < idx + N.of_nat (length l) /\ seg_data s <> []
                   /\ seg_last s = (seg_idx s + 1 =? idx + N.of_nat (length l))) l.
Proof.
  induction l as [|s t IH]; intros idx H; [constructor|].
  destruct H as (Hi & Hd & Hl & Ht). constructor.
  - rewrite Hl. destruct t; cbn [length is_nil]; repeat split; try assumption; lia.
  - eapply Forall_impl; [|exact (IH _ Ht)]. cbn [length]. intros a (H1 & H2 & H3).
    rewrite H3. repeat split; try assumption; lia.
Qed.

Lemma seg_frame_length hs xid s :
  blen (seg_frame hs xid s) = head_len hs + 8 + blen (seg_data s).
Proof.
  destruct s as [[i d] b]. unfold seg_frame, encode_frame, encode_msgs, seg_msg, mk_seg, mk_msg, head_len, seg_data.
  cbn [f_msgs f_pad map concat fst snd]. rewrite !app_nil_r, encode_msg_length.
  cbn [m_hints m_body]. rewrite !blen_app, !blen_be. lia.
Qed.

Theorem segments_spec hs mtu data :
  mtu_feasible_h hs mtu = true ->
  shape 0 (segments hs mtu data)
  /\ concat (map seg_data (segments hs mtu data)) = data
  /\ Forall (fun s => (length (seg_data s) <= N.to_nat (remain_size hs mtu))%nat) (segments hs mtu data)
  /\ (length (segments hs mtu data) <= length data)%nat.
Proof.
  unfold mtu_feasible_h, segments, remain_size. intros Hm. apply N.ltb_lt in Hm.
  apply chunk_spec; lia.
Qed.

Lemma within_mtu_any hs mtu xid data :
  mtu_feasible_h hs mtu = true \/ fits (Some mtu) (blen data) = true ->
  Forall (fun f => blen f <= mtu) (send_transfer_h hs (Some mtu) xid data).
Proof.
  intros H. unfold send_transfer_h. destruct (fits (Some mtu) (blen data)) eqn:Hfit.
  - constructor; [|constructor]. unfold fits in Hfit. apply N.ltb_lt in Hfit.
    unfold encode_frame, encode_msgs. cbn [f_msgs f_pad map concat]. rewrite !app_nil_r, encode_msg_length.
    unfold mk_bundle, mk_msg. cbn [m_hints m_body is_nil encode_hints]. change (blen []) with 0. lia.
  - destruct H as [Hm|]; [|discriminate]. destruct (segments_spec hs mtu data Hm) as (_ & _ & Hd & _).
    apply Forall_map. eapply Forall_impl; [|exact Hd]. cbn beta. intros s Hs.
    unfold mtu_feasible_h in Hm. apply N.ltb_lt in Hm.
    rewrite seg_frame_length. unfold remain_size in Hs. unfold blen. lia.
Qed.

Theorem within_mtu_h hs mtu xid data :
  mtu_feasible_h hs mtu = true ->
  Forall (fun f => blen f <= mtu) (send_transfer_h hs (Some mtu) xid data).
Proof. intros H. apply within_mtu_any. left. exact H. Qed.

(** One segment holds fewer octets than a bundle that does not fit. *)
Theorem segments_ge2 hs mtu data :
  mtu_feasible_h hs mtu = true -> fits (Some mtu) (blen data) = false ->
  (2 <= length (segments hs mtu data))%nat.
Proof.
  intros Hm Hf. destruct (segments_spec hs mtu data Hm) as (_ & Hc & Hd & _).
  unfold mtu_feasible_h, fits, remain_size, head_len, blen in *. apply N.ltb_lt in Hm. apply N.ltb_ge in Hf.
  apply (f_equal (@length N)) in Hc.
  destruct (segments hs mtu data) as [|s [|s2 t]]; cbn [length]; [| |lia].
  - cbn [map concat length] in Hc. lia.
  - cbn [map concat] in Hc. rewrite app_nil_r in Hc. apply Forall_inv in Hd. lia.
Qed.

Lemma be4_nonnil x rest : is_nil (be 4 x ++ rest) = false.
Proof.
  apply is_nil_false. intros E. apply (f_equal (@length N)) in E.
  rewrite app_length, be_length in E. cbn in E. lia.
Qed.

Lemma view_mk_seg hs last x i d :
  x < 4294967296 -> i < 4294967296 ->
  view (mk_seg hs last x i d) = if last then CEnd x i d else CSeg x i d.
Proof.
  intros Hx Hi. unfold view, mk_seg, mk_msg. cbn [m_body m_type]. rewrite be4_nonnil.
  unfold view_xfer. rewrite take_be_app by (rewrite pow_256_4; exact Hx).
  rewrite take_be_app by (rewrite pow_256_4; exact Hi).
  destruct last; reflexivity.
Qed.

Lemma view_mk_bundle d : d <> [] -> view (mk_bundle d) = CBundle d.
Proof. intros H. unfold view, mk_bundle, mk_msg. cbn [m_body m_type]. destruct d; [congruence|reflexivity]. Qed.

Lemma wf_mk_msg t hs body :
  t < 256 -> Forall wf_hint hs -> (length hs <= MAX_LIST)%nat -> wf_bytes body ->
  blen (encode_hints hs) + blen body < LEN_MOD ->
  wf_msg (mk_msg t hs body).
Proof.
  intros Ht Hh Hn Hb Hl. unfold wf_msg, mk_msg. cbn [m_type m_flags m_hints m_body].
  repeat split; try assumption.
  - destruct hs; cbn [is_nil]; lia.
  - destruct hs; reflexivity.
Qed.

Lemma single_frame m :
  wf_msg m -> m_type m <> 0 ->
  let f := encode_frame (mkFrame [m] []) in
  decode_frame f = Some (mkFrame [m] [])
  /\ declared_len f = Some (blen f - 4)
  /\ blen f = 4 + (blen (encode_hints (m_hints m)) + blen (m_body m)).
Proof.
  intros Hm Ht. cbn zeta. split.
  - apply decode_frame_encode, wf_frameb_spec. unfold wf_frame. cbn [f_msgs f_pad length].
    split; [constructor; [split; assumption|constructor]|]. split; [unfold MAX_LIST; lia|]. split; [exact I|constructor].
  - unfold encode_frame, encode_msgs. cbn [f_msgs f_pad map concat]. rewrite app_nil_r.
    destruct (declared_len_encode m [] (proj2 (wf_msgb_spec _) Hm)) as [D L].
    rewrite D, app_nil_r, L. split; [f_equal; lia|reflexivity].
Qed.

(** Conditions under which the fields of a segment fit their widths. *)
Definition seg_encodable (hs : list hint) (xid : N) (s : N * bytes * bool) : Prop :=
  Forall wf_hint hs /\ (length hs <= MAX_LIST)%nat /\ xid < 4294967296 /\ seg_idx s < 4294967296
  /\ wf_bytes (seg_data s) /\ blen (encode_hints hs) + 8 + blen (seg_data s) < LEN_MOD.

Lemma seg_msg_wf hs xid s : seg_encodable hs xid s -> wf_msg (seg_msg hs xid s) /\ m_type (seg_msg hs xid s) <> 0.
Proof.
  destruct s as [[i d] b]. unfold seg_encodable, seg_idx, seg_data, seg_msg, mk_seg. cbn [fst snd].
  intros (Hh & Hn & Hx & Hi & Hd & Hl). split; [|cbn; destruct b; lia].
  apply wf_mk_msg; try assumption.
  - destruct b; lia.
  - apply wf_bytes_app; split; [apply be_wf|]. apply wf_bytes_app; split; [apply be_wf|exact Hd].
  - rewrite !blen_app, !blen_be. lia.
Qed.

Lemma seg_frame_decode hs xid s :
  seg_encodable hs xid s ->
  decode_frame (seg_frame hs xid s) = Some (mkFrame [seg_msg hs xid s] [])
  /\ view (seg_msg hs xid s)
     = if seg_last s then CEnd xid (seg_idx s) (seg_data s) else CSeg xid (seg_idx s) (seg_data s).
Proof.
  intros He. destruct (seg_msg_wf _ _ _ He) as [Hw Ht]. split; [apply single_frame; assumption|].
  destruct s as [[i d] b]. destruct He as (_ & _ & Hx & Hi & _). apply view_mk_seg; assumption.
Qed.

Lemma head_len_xfer total : head_len (xfer_hints total) = 10.
Proof.
  unfold head_len, xfer_hints, blen. cbn [encode_hints length h_data h_type app is_nil].
  rewrite app_nil_r, be_length. reflexivity.
Qed.

Lemma xfer_hints_wf total : Forall wf_hint (xfer_hints total).
Proof.
  constructor; [|constructor]. unfold wf_hint, blen. cbn [h_type h_data]. rewrite be_length.
  repeat split; try lia. apply be_wf.
Qed.

Lemma mtu_feasible_xfer total mtu : mtu_feasible mtu = true -> mtu_feasible_h (xfer_hints total) mtu = true.
Proof. unfold mtu_feasible, mtu_feasible_h. rewrite head_len_xfer. intros H. apply N.ltb_lt in H. apply N.ltb_lt. lia. Qed.
