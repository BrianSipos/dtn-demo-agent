(** Tie between the hand-written session model and the fragments of
    tcpcl/session.py that the translator regenerates on every run
    (Gen/SessParams.v).  If the code's expression for the negotiated
    keepalive, the initial segment size, the buffer-refill trigger, the idle
    predicates or the close-when-terminating test changes, the regenerated
    definitions change and these lemmas stop checking.  The statements are
    about the text of the model functions: some hold by [reflexivity]. *)
From Coq Require Import List NArith Lia.
From RecordUpdate Require Import RecordSet.
From DTN Require Import Model.TcpclSess Gen.SessParams.
Import ListNotations RecordSetNotations.
Local Open Scope N_scope.

Definition none_b {A} (o : option A) : bool := match o with None => true | Some _ => false end.

Lemma tie_idle s :
  is_sess_idle s =
  gen_idle_handler (gen_idle_messenger (is_nil (rx_buf s)) (is_nil (msg_tx s)))
                   (none_b (rx_tmp s)) (none_b (tx_tmp s)) (is_nil (pend_start s)) (is_nil (pend_ack s)).
Proof.
  unfold is_sess_idle, gen_idle_handler, gen_idle_messenger, none_b.
  destruct (rx_tmp s), (tx_tmp s); reflexivity.
Qed.

Lemma tie_check_sess_term s :
  check_sess_term s = if gen_close_when (in_term s) (is_sess_idle s) then do_close s else s.
Proof. reflexivity. Qed.

Lemma tie_send_buffer_decreased buf_use s :
  send_buffer_decreased buf_use s = if gen_buf_trigger buf_use (seg_size s) then pq_trigger s else s.
Proof. reflexivity. Qed.

Lemma tie_merge s s' this peer :
  sessinit_this s = Some this -> sessinit_peer s = Some peer ->
  merge_session_params s = (s', None) ->
  keepalive_time s' = gen_keepalive (si_keepalive this) (si_keepalive peer)
  /\ seg_size s' = gen_seg_size (c_seg_init (cf s)) (si_seg_mru peer).
Proof.
  intros Ht Hp. unfold merge_session_params. rewrite Ht, Hp.
  destruct (negb (ascii (si_nodeid peer))); [discriminate|].
  intros E. inversion E; subst s'. cbn. split; reflexivity.
Qed.

(** The segment-size controller can compute anything: the clamp keeps the
    result within the peer's segment MRU (and at or above the floor when the
    floor itself is within the MRU). *)
Theorem clamp_le_mru next floor mru : gen_clamp next floor mru <= mru.
Proof. unfold gen_clamp. lia. Qed.

Theorem clamp_ge_floor next floor mru : floor <= mru -> floor <= gen_clamp next floor mru.
Proof. unfold gen_clamp. lia. Qed.

Theorem seg_size_le_mru init mru : gen_seg_size init mru <= mru.
Proof. unfold gen_seg_size. lia. Qed.

Theorem keepalive_is_min a b : gen_keepalive a b = N.min a b.
Proof. reflexivity. Qed.
