(** C18 (second part): the queues visible over D-Bus are consistent with the
    signals and return values in the trace of the endpoint model
    [Model/TcpclSess.v]. *)
From Coq Require Import NArith List Bool Lia.
From Coq Require Import Permutation.
From RecordUpdate Require Import RecordSet.
From DTN Require Import Lib.Bytes Model.TcpclMsg Model.TcpclSess Proofs.TcpclSessBasics
  Proofs.TcpclSessSpec Proofs.TcpclRobustProofs.
Import ListNotations RecordSetNotations.
Local Open Scope N_scope.

(** Transfer ids returned by [send_bundle_data] ([ret_ids] is the model's
    [TcpclXferSpec.send_ids], with its reader under a name for [same_log]). *)
Definition ret_of (e : event) : list N :=
  match e with ERet 1 (PStrNum id) => [id] | _ => [] end.
(** Transfer ids reported by [send_bundle_finished]. *)
Definition fin_of (e : event) : list N :=
  match e with ESig SigSendFinished [PStrNum id; PInt _; PStr _] => [id] | _ => [] end.
Definition ret_ids (tr : list event) : list N := flat_map ret_of tr.
Definition fin_ids (tr : list event) : list N := flat_map fin_of tr.

Lemma in_ret_ids id tr : In id (ret_ids tr) <-> In (ERet 1 (PStrNum id)) tr.
Proof.
  unfold ret_ids. rewrite in_flat_map. split.
  - intros [e [He Hi]]. destruct e as [| tag v | | |]; try contradiction.
    destruct tag as [|[| |]]; try contradiction. destruct v; try contradiction.
    destruct Hi as [<-|[]]. exact He.
  - intros H. exists (ERet 1 (PStrNum id)). split; [exact H|left; reflexivity].
Qed.

Lemma in_fin_ids id tr :
  In id (fin_ids tr) <-> exists len r, In (ESig SigSendFinished [PStrNum id; PInt len; PStr r]) tr.
Proof.
  unfold fin_ids. rewrite in_flat_map. split.
  - intros [e [He Hi]]. destruct e as [sg args| | | |]; try contradiction.
    destruct sg; try contradiction.
    destruct args as [|[] [|[] [|[] [|]]]]; try contradiction.
    destruct Hi as [<-|[]]. eauto.
  - intros (len & r & H). eexists. split; [exact H|left; reflexivity].
Qed.

Lemma flat_map_map_nil {A B C} (f : B -> list C) (g : A -> B) l :
  (forall x, f (g x) = []) -> flat_map f (map g l) = [].
Proof. intros H. induction l as [|a l IH]; cbn [map flat_map]; [reflexivity|]. rewrite H, IH. reflexivity. Qed.

Lemma fin_ids_flush l : flat_map fin_of (map TcpclXferSpec.term_ev l) = map fst l.
Proof.
  induction l as [|a l IH]; [reflexivity|].
  cbn [map flat_map fin_of TcpclXferSpec.term_ev app]. rewrite IH. reflexivity.
Qed.

(** The receive-side log of a trace: [(id, true)] for recv_bundle_finished(id),
    [(id, false)] for a successful recv_bundle_pop_data(id). *)
Definition rxlog_of (e : event) : list (N * bool) :=
  match e with
  | ESig SigRecvFinished (PStrNum id :: _) => [(id, true)]
  | EPop id _ => [(id, false)]
  | _ => []
  end.
Definition rx_log (tr : list event) : list (N * bool) := flat_map rxlog_of tr.
Definition last_is_delivery (id : N) (log : list (N * bool)) : bool :=
  fold_left (fun b (p : N * bool) => if fst p =? id then snd p else b) log false.
Definition rx_avail (id : N) (tr : list event) : bool := last_is_delivery id (rx_log tr).

(** [(id, true)] for send_bundle_started(id), [(id, false)] for
    send_bundle_finished(id, _, 'success'). *)
Definition sblog_of (e : event) : list (N * bool) :=
  match e with
  | ESig SigSendStarted [PStrNum id; PInt _] => [(id, true)]
  | ESig SigSendFinished [PStrNum id; PInt _; PStr r] => if r =? RES_SUCCESS then [(id, false)] else []
  | _ => []
  end.
Definition sb_log (tr : list event) : list (N * bool) := flat_map sblog_of tr.

Lemma sblog_refused xid ack reason : sblog_of (ev_sfin xid ack (RES_REFUSED reason)) = [].
Proof.
  unfold ev_sfin, sblog_of, RES_REFUSED, RES_SUCCESS.
  destruct (N.eqb_spec (100 + reason) 0); [lia|reflexivity].
Qed.

(** Compute what the readers see of a trace that is the old trace followed by
    appended pieces. *)
Ltac log_norm :=
  unfold ret_ids, fin_ids, rx_log, sb_log;
  rewrite ?flat_map_app, ?fin_ids_flush, ?(flat_map_map_nil _ TcpclXferSpec.term_ev) by reflexivity;
  cbn [ret_ids fin_ids rx_log sb_log flat_map app];
  rewrite ?sblog_refused;
  cbn [ret_of fin_of rxlog_of sblog_of app ev_rstart ev_rinter ev_rfin ev_sinter ev_sfin
       N.eqb RES_SUCCESS RES_TERMINATING Pos.eqb];
  rewrite ?app_nil_r.

Definition notin (L : list N) (x : N) : bool := negb (mem_N x L).

Lemma notin_true L x : notin L x = true <-> ~ In x L.
Proof.
  unfold notin. rewrite negb_true_iff. rewrite <- mem_N_In.
  destruct (mem_N x L); split; intros; try congruence; try tauto; try (exfalso; auto).
Qed.

Lemma filter_all (f : N -> bool) l : (forall x, In x l -> f x = true) -> filter f l = l.
Proof.
  induction l as [|y l IH]; intros H; cbn [filter]; [reflexivity|].
  rewrite (H y) by (left; reflexivity). rewrite IH; [reflexivity|].
  intros x Hx. apply H. right. exact Hx.
Qed.

Lemma remove_N_filter x l : NoDup l -> remove_N x l = filter (notin [x]) l.
Proof.
  induction l as [|y l IH]; intros ND; cbn [remove_N filter]; [reflexivity|].
  inversion ND as [|? ? Hy ND']; subst.
  unfold notin at 1. cbn [mem_N existsb orb]. rewrite orb_false_r.
  destruct (N.eqb_spec y x) as [->|Hne]; cbn [negb].
  - symmetry. apply filter_all. intros z Hz.
    apply notin_true. intros [->|[]]. contradiction.
  - rewrite IH by exact ND'. reflexivity.
Qed.

Lemma filter_filter {A} (f g : A -> bool) l : filter f (filter g l) = filter (fun x => g x && f x) l.
Proof.
  induction l as [|x l IH]; cbn [filter]; [reflexivity|].
  destruct (g x); cbn [filter andb]; [destruct (f x)|]; rewrite IH; reflexivity.
Qed.

Lemma keys_del_all l (m : list (N * N)) :
  NoDup (map fst m) -> map fst (del_all l m) = filter (notin (map fst l)) (map fst m).
Proof.
  unfold del_all. revert m. induction l as [|it l IH]; intros m ND; cbn [fold_left map fst].
  - symmetry. apply filter_all. intros. reflexivity.
  - rewrite IH.
    + rewrite keys_dict_del, remove_N_filter by exact ND. rewrite filter_filter.
      apply filter_ext_in. intros x _. unfold notin. cbn [mem_N existsb orb].
      rewrite orb_false_r. destruct (x =? fst it); reflexivity.
    + rewrite keys_dict_del, remove_N_filter by exact ND. apply NoDup_filter, ND.
Qed.

Lemma dict_get_none {V} k (m : list (N * V)) : dict_get k m = None <-> ~ In k (map fst m).
Proof. apply dict_get_none_keys. Qed.

Lemma filter_notin_id L l : (forall x, In x l -> ~ In x L) -> filter (notin L) l = l.
Proof. intros H. apply filter_all. intros x Hx. apply notin_true, H, Hx. Qed.

(* an element left by the filter would be in [L] and not in [L] *)
Lemma filter_notin_self L : filter (notin L) L = [].
Proof.
  destruct (filter (notin L) L) as [|x r] eqn:E; [reflexivity|].
  assert (H : In x (filter (notin L) L)) by (rewrite E; left; reflexivity).
  apply filter_In in H. destruct H as [H1 H2]. apply notin_true in H2. contradiction.
Qed.

Lemma NoDup_app_iff {A} (a b : list A) :
  NoDup (a ++ b) <-> NoDup a /\ NoDup b /\ (forall x, In x a -> In x b -> False).
Proof.
  induction a as [|x a IH]; cbn [app].
  - split; [intros H|intros (_ & H & _); exact H]. split; [constructor|]. split; [exact H|]. intros x [].
  - rewrite !NoDup_cons_iff, IH, in_app_iff. cbn [In]. split.
    + intros (Hx & Na & Nb & D). repeat split; try tauto. intros y [<-|Hy]; [tauto|apply D, Hy].
    + intros ((Hx & Na) & Nb & D). repeat split; try assumption.
      * intros [H|H]; [exact (Hx H)|exact (D x (or_introl eq_refl) H)].
      * intros y Hy. apply D. right. exact Hy.
Qed.

Definition tmp_id (s : ep) : list N := match tx_tmp s with Some (i, _) => [i] | None => [] end.
Definition stage_ids (s : ep) : list N := map fst (pend_start s) ++ tmp_id s ++ pend_ack s.

(** The part of the state and trace the send-queue statements speak about. *)
Record txv := mkTxv { tv_keys : list N; tv_next : N; tv_ret : list N; tv_fin : list N; tv_stage : list N }.

Definition tx_view (s : ep) : txv :=
  mkTxv (map fst (tx_map s)) (next_id s) (ret_ids (trace s)) (fin_ids (trace s)) (stage_ids s).

Record txq_v (v : txv) : Prop := {
  q_nodup : NoDup (tv_keys v);
  q_lt : forall id, In id (tv_ret v) -> id < tv_next v;
  q_iff : forall id, In id (tv_keys v) <-> (In id (tv_ret v) /\ ~ In id (tv_fin v));
  q_fin_nodup : NoDup (tv_fin v);
  q_fin_ret : forall id, In id (tv_fin v) -> In id (tv_ret v);
  q_stage_nodup : NoDup (tv_stage v);
  q_stage_incl : forall id, In id (tv_stage v) -> In id (tv_keys v)
}.

(** The send queue and the trace agree. *)
Definition txq (s : ep) : Prop := txq_v (tx_view s).

(** The three ways the view changes: transfers [L] (queued, distinct) finish; a
    new transfer, numbered [tv_next], is queued; the transfers under way move
    between the stages. *)
Lemma txq_finish L v v' :
  txq_v v -> NoDup L -> (forall id, In id L -> In id (tv_keys v)) ->
  tv_keys v' = filter (notin L) (tv_keys v) -> tv_next v' = tv_next v -> tv_ret v' = tv_ret v ->
  tv_fin v' = tv_fin v ++ L -> tv_stage v' = filter (notin L) (tv_stage v) ->
  txq_v v'.
Proof.
  intros [A B C D D' E F] NL HL E1 E2 E3 E4 E5. split; rewrite ?E1, ?E2, ?E3, ?E4, ?E5.
  - apply NoDup_filter, A.
  - exact B.
  - intros id. rewrite filter_In, notin_true, in_app_iff, C. tauto.
  - apply NoDup_app_iff. split; [exact D|]. split; [exact NL|].
    intros x Hx Hl. apply HL, C in Hl. tauto.
  - intros id. rewrite in_app_iff. intros [H|H]; [apply D', H|]. apply HL, C in H. tauto.
  - apply NoDup_filter, E.
  - intros id. rewrite !filter_In. intros [H1 H2]. split; [apply F, H1|exact H2].
Qed.

Lemma txq_queue v v' :
  txq_v v ->
  tv_keys v' = tv_keys v ++ [tv_next v] -> tv_next v' = tv_next v + 1 -> tv_ret v' = tv_ret v ++ [tv_next v] ->
  tv_fin v' = tv_fin v -> Permutation (tv_next v :: tv_stage v) (tv_stage v') ->
  txq_v v'.
Proof.
  intros [A B C D D' E F] E1 E2 E3 E4 P.
  assert (Hnk : ~ In (tv_next v) (tv_keys v)).
  { intros H. apply C in H. destruct H as [H _]. apply B in H. lia. }
  assert (Hnf : ~ In (tv_next v) (tv_fin v)).
  { intros H. apply D', B in H. lia. }
  split; rewrite ?E1, ?E2, ?E3, ?E4.
  - apply NoDup_snoc; assumption.
  - intros id. rewrite in_app_iff. intros [H|[<-|[]]]; [apply B in H|]; lia.
  - intros id. rewrite !in_app_iff, C. cbn [In]. split.
    + intros [[H1 H2]|[<-|[]]]; tauto.
    + intros [[H1|[<-|[]]] H2]; tauto.
  - exact D.
  - intros id H. apply in_or_app. left. apply D', H.
  - eapply Permutation_NoDup; [exact P|]. constructor; [|exact E].
    intros H. apply Hnk, F, H.
  - intros id H. apply Permutation_sym in P. apply (Permutation_in _ P) in H.
    apply in_or_app. destruct H as [<-|H]; [right; left; reflexivity|left; apply F, H].
Qed.

Lemma txq_perm v v' :
  txq_v v -> tv_keys v' = tv_keys v -> tv_next v' = tv_next v -> tv_ret v' = tv_ret v -> tv_fin v' = tv_fin v ->
  Permutation (tv_stage v) (tv_stage v') -> txq_v v'.
Proof.
  intros [A B C D D' E F] E1 E2 E3 E4 P. split; rewrite ?E1, ?E2, ?E3, ?E4; try assumption.
  - eapply Permutation_NoDup; eassumption.
  - intros id H. apply Permutation_sym in P. apply F. eapply Permutation_in; eassumption.
Qed.

(** Compute the view of a state in canonical form, in the premises of the three lemmas above. *)
Ltac tx_open :=
  unfold tx_view, stage_ids, tmp_id; cbn [tv_keys tv_next tv_ret tv_fin tv_stage]; ep_cbn; log_norm;
  try reflexivity.

Lemma stage_parts s :
  txq s ->
  NoDup (map fst (pend_start s)) /\ NoDup (tmp_id s) /\ NoDup (pend_ack s)
  /\ (forall x, In x (map fst (pend_start s)) -> ~ In x (tmp_id s) /\ ~ In x (pend_ack s))
  /\ (forall x, In x (tmp_id s) -> ~ In x (pend_ack s)).
Proof.
  intros J. pose proof (q_stage_nodup _ J) as H. cbn [tx_view tv_stage] in H.
  unfold stage_ids in H. apply NoDup_app_iff in H. destruct H as (N1 & N23 & D1).
  apply NoDup_app_iff in N23. destruct N23 as (N2 & N3 & D2).
  repeat split; try assumption.
  - intros Hx. apply (D1 x H). apply in_or_app. left. exact Hx.
  - intros Hx. apply (D1 x H). apply in_or_app. right. exact Hx.
Qed.

Lemma txq_flush s : txq s -> txq (flush_pend_start' s).
Proof.
  intros J.
  pose proof (q_stage_incl _ J) as IS. pose proof (q_nodup _ J) as NK. cbn [tx_view tv_stage tv_keys] in IS, NK.
  destruct (stage_parts s J) as (N1 & N2 & N3 & D1 & D2).
  apply (txq_finish (map fst (pend_start s)) (tx_view s) _ J N1); tx_open.
  - intros id H. apply IS. unfold stage_ids. apply in_or_app. left. exact H.
  - apply keys_del_all, NK.
  - rewrite filter_app, filter_notin_self. cbn [app map].
    symmetry. apply filter_notin_id. intros x Hx Hl. destruct (D1 x Hl) as [A B].
    apply in_app_or in Hx. tauto.
Qed.

Lemma txq_finish1 s s' xid :
  txq s -> In xid (map fst (tx_map s)) ->
  map fst (tx_map s') = remove_N xid (map fst (tx_map s)) ->
  next_id s' = next_id s ->
  ret_ids (trace s') = ret_ids (trace s) ->
  fin_ids (trace s') = fin_ids (trace s) ++ [xid] ->
  stage_ids s' = remove_N xid (map fst (pend_start s)) ++ filter (notin [xid]) (tmp_id s)
                 ++ remove_N xid (pend_ack s) ->
  txq s'.
Proof.
  intros J Hin E1 E2 E3 E4 E5.
  pose proof (q_nodup _ J) as NK. cbn [tx_view tv_keys] in NK.
  destruct (stage_parts s J) as (N1 & N2 & N3 & D1 & D2).
  apply (txq_finish [xid] (tx_view s) (tx_view s') J); cbn [tx_view tv_keys tv_next tv_ret tv_fin tv_stage]; try assumption.
  - repeat constructor. intros [].
  - intros id [<-|[]]. exact Hin.
  - rewrite E1. apply remove_N_filter, NK.
  - rewrite E5. unfold stage_ids. rewrite !filter_app, !remove_N_filter by assumption. reflexivity.
Qed.

Lemma last_snoc id log p :
  last_is_delivery id (log ++ [p]) = if fst p =? id then snd p else last_is_delivery id log.
Proof. unfold last_is_delivery. rewrite fold_left_app. reflexivity. Qed.

Record rxq_v (keys : list N) (log : list (N * bool)) : Prop := {
  r_nodup : NoDup keys;
  r_iff : forall id, In id keys <-> last_is_delivery id log = true
}.
(** The receive queue and the trace agree. *)
Definition rxq (s : ep) : Prop := rxq_v (map fst (rx_map s)) (rx_log (trace s)).

Lemma rxq_add keys log xid :
  rxq_v keys log ->
  rxq_v (if mem_N xid keys then keys else keys ++ [xid]) (log ++ [(xid, true)]).
Proof.
  intros [A B]. split.
  - destruct (mem_N xid keys) eqn:E; [exact A|].
    apply NoDup_snoc; [exact A|]. intros Hx. apply mem_N_In in Hx. congruence.
  - intros id. rewrite last_snoc. cbn [fst snd].
    destruct (N.eqb_spec xid id) as [->|Hne].
    + split; [reflexivity|]. intros _. destruct (mem_N id keys) eqn:E.
      * apply mem_N_In, E.
      * apply in_or_app. right. left. reflexivity.
    + rewrite <- B. destruct (mem_N xid keys); [tauto|]. rewrite in_app_iff. cbn [In]. tauto.
Qed.

Lemma rxq_del keys log xid :
  rxq_v keys log -> rxq_v (remove_N xid keys) (log ++ [(xid, false)]).
Proof.
  intros [A B]. split.
  - rewrite remove_N_filter by exact A. apply NoDup_filter, A.
  - intros id. rewrite last_snoc. cbn [fst snd]. rewrite remove_N_filter by exact A.
    rewrite filter_In, notin_true. cbn [In].
    destruct (N.eqb_spec xid id) as [->|Hne].
    + split; [intros [_ H]; exfalso; apply H; left; reflexivity|discriminate].
    + rewrite <- B. split; [tauto|]. intros H. split; [exact H|]. intros [E|[]]. congruence.
Qed.

Definition started_l (log : list (N * bool)) : list N := map fst (filter snd log).

(** Every success entry is preceded by a start entry for the same id ([st]: the ids started so far). *)
Fixpoint chkl (st : list N) (log : list (N * bool)) : Prop :=
  match log with
  | [] => True
  | (id, true) :: r => chkl (st ++ [id]) r
  | (id, false) :: r => In id st /\ chkl st r
  end.

Lemma started_l_app a b : started_l (a ++ b) = started_l a ++ started_l b.
Proof. unfold started_l. rewrite filter_app, map_app. reflexivity. Qed.

Lemma chkl_app a : forall st b, chkl st (a ++ b) <-> chkl st a /\ chkl (st ++ started_l a) b.
Proof.
  induction a as [|[id [|]] a IH]; intros st b; cbn [app chkl].
  - unfold started_l. cbn. rewrite app_nil_r. tauto.
  - rewrite IH. unfold started_l. cbn [filter snd map fst]. rewrite <- app_assoc. reflexivity.
  - rewrite IH. unfold started_l. cbn [filter snd map fst]. tauto.
Qed.

Record sbf_v (log : list (N * bool)) (ids : list N) : Prop := {
  sb_chk : chkl [] log;
  sb_ids : forall id, In id ids -> In id (started_l log)
}.
(** Started before finished: the log is in order and the transfers being sent
    or awaiting their acknowledgement have been reported started. *)
Definition sbf (s : ep) : Prop := sbf_v (sb_log (trace s)) (tmp_id s ++ pend_ack s).

Lemma sb_sub log log' ids ids' :
  sbf_v log ids -> log' = log -> (forall id, In id ids' -> In id ids) -> sbf_v log' ids'.
Proof. intros [A B] -> H. split; [exact A|]. intros id Hi. apply B, H, Hi. Qed.

Lemma sb_start log log' ids ids' n :
  sbf_v log ids -> log' = log ++ [(n, true)] -> (forall id, In id ids' -> id = n \/ In id ids) ->
  sbf_v log' ids'.
Proof.
  intros [A B] -> H. split.
  - apply chkl_app. split; [exact A|]. exact I.
  - intros id Hi. rewrite started_l_app. apply in_or_app. destruct (H id Hi) as [->|Hd].
    + right. left. reflexivity.
    + left. apply B, Hd.
Qed.

Lemma sb_succ log log' ids ids' x :
  sbf_v log ids -> In x ids -> log' = log ++ [(x, false)] -> (forall id, In id ids' -> In id ids) ->
  sbf_v log' ids'.
Proof.
  intros [A B] Hx -> H. split.
  - apply chkl_app. split; [exact A|]. cbn [chkl app]. split; [apply B, Hx|exact I].
  - intros id Hi. rewrite started_l_app. apply in_or_app. left. apply B, H, Hi.
Qed.

(** The transfers under way afterwards were under way before (the side
    condition of [sb_sub], [sb_start], [sb_succ]). *)
Ltac sub_ids :=
  intro; unfold tmp_id, tx_cur_is in *; ep_cbn;
  repeat match goal with H : tx_tmp _ = _ |- _ => rewrite H end;
  repeat brk_any; rewrite ?in_app_iff; cbn [In];
  intros Hid; repeat match goal with
                     | H : _ \/ _ |- _ => destruct H
                     | H : In _ (remove_N _ _) |- _ => apply In_remove_N in H
                     | H : False |- _ => destruct H
                     end; subst; try discriminate; auto.

Definition dq (s : ep) : Prop := txq s /\ rxq s /\ sbf s.

(** [T'] reads like [T] for the reader [f]; so it does when it is [T] followed
    by events [f] ignores. *)
Definition same_log {A} (f : event -> list A) (T T' : list event) : Prop := flat_map f T' = flat_map f T.

Lemma same_log_ext {A} (f : event -> list A) T T' : ext_tr (fun e => f e = []) T T' -> same_log f T T'.
Proof.
  intros (evs & -> & F). unfold same_log. rewrite flat_map_app.
  induction F as [|e l E _ IH]; cbn [flat_map]; [apply app_nil_r|]. rewrite E. exact IH.
Qed.

Lemma txq_keep s s' :
  txq s -> map fst (tx_map s') = map fst (tx_map s) -> next_id s' = next_id s -> pend_start s' = pend_start s ->
  tx_tmp s' = tx_tmp s -> pend_ack s' = pend_ack s ->
  same_log ret_of (trace s) (trace s') -> same_log fin_of (trace s) (trace s') -> txq s'.
Proof.
  unfold txq, tx_view, stage_ids, tmp_id, ret_ids, fin_ids, same_log. intros J -> -> -> -> -> -> ->. exact J.
Qed.
Lemma rxq_keep s s' :
  rxq s -> map fst (rx_map s') = map fst (rx_map s) -> same_log rxlog_of (trace s) (trace s') -> rxq s'.
Proof. unfold rxq, rx_log, same_log. intros J -> ->. exact J. Qed.
Lemma sbf_keep s s' :
  sbf s -> tx_tmp s' = tx_tmp s -> pend_ack s' = pend_ack s -> same_log sblog_of (trace s) (trace s') -> sbf s'.
Proof. unfold sbf, tmp_id, sb_log, same_log. intros J -> -> ->. exact J. Qed.

(** [J] is [txq], [rxq] or [sbf] of [s]; the goal the same of a state in
    canonical form.  By the matching [_keep] lemma; its premises: a field by
    [reflexivity], the keys after an update of a known id by [dict_set_keys],
    a trace by its shape ([same_log_ext], [ext_shape]). *)
Ltac keep J :=
  first [apply (txq_keep _ _ J) | apply (rxq_keep _ _ J) | apply (sbf_keep _ _ J)];
  ep_cbn;
  first [ reflexivity | eapply dict_set_keys; eassumption
        | solve [apply same_log_ext;
                 ext_shape ltac:(first [reflexivity | apply Forall_map, Forall_forall; reflexivity])] ].
Ltac keep3 J R S := split; [|split]; [keep J|keep R|keep S].

Lemma dq_cst s : dq s -> dq (check_sess_term' s).
Proof. intros (J & R & S). keep3 J R S. Qed.

Lemma dq_flush s : dq s -> dq (flush_pend_start' s).
Proof.
  intros (J & R & S). split; [|split]; [apply txq_flush, J|keep R|keep S].
Qed.

Lemma dq_close s : dq s -> dq (do_close' s).
Proof.
  intros D. unfold do_close'. destruct (closed s).
  - destruct D as (J & R & S). keep3 J R S.
  - destruct (dq_flush s D) as (J & R & S). keep3 J R S.
Qed.

Lemma dq_deliver flags xid acc s :
  dq s -> dq (seg_acked flags xid acc s <| rx_map := dict_set xid acc (rx_map s) |>
                <| trace := trace s ++ [ev_rfin xid (N.of_nat (length acc))] |> <| rx_tmp := None |>).
Proof.
  intros (J & R & S). split; [|split]; [keep J| |keep S].
  unfold rxq in *. ep_cbn. rewrite keys_dict_set. log_norm. apply rxq_add, R.
Qed.

(** A refused transfer finishes, wherever it stands; [cur]: it is the one being sent. *)
Lemma dq_refused reason xid ack (cur : bool) s :
  dict_get xid (tx_map s) = Some ack -> tx_cur_is xid s = cur -> dq s ->
  dq (refused reason xid ack s <| tx_tmp := if cur then None else tx_tmp s |>).
Proof.
  intros Hg <- (J & R & S). split; [|split]; [|keep R|].
  - apply (txq_finish1 s _ xid J); [eapply dict_get_key, Hg|..];
      unfold stage_ids, tmp_id, tx_cur_is; ep_cbn; log_norm; rewrite ?keys_dict_del; try reflexivity.
    destruct (tx_tmp s) as [[i d]|]; [|reflexivity].
    unfold notin, mem_N. cbn [filter existsb]. rewrite orb_false_r. destruct (i =? xid); reflexivity.
  - (* no success is logged *)
    apply (sb_sub _ _ _ _ S); [ep_cbn; log_norm; reflexivity|sub_ids].
Qed.

Lemma dq_frame f s : dq s -> dq (fst (recv_frame f s)).
Proof.
  intros D. frame_cases f s; cbn [msg_result fst snd].
  all: repeat lazymatch goal with
            | |- dq (check_sess_term' _) => apply dq_cst
            | |- dq (do_close' _) => apply dq_close
            | |- dq (flush_pend_start' _) => apply dq_flush
            | |- dq (set _ _ (set _ _ (set _ _ (seg_acked _ _ _ _)))) => apply dq_deliver
            end.
  (* XFER_REFUSE: the state differs from that of [dq_refused] in fields the caller does not see *)
  all: try match goal with
           | H : dict_get ?x (tx_map ?s) = Some ?a, C : tx_cur_is ?x ?s = _ |- context [refused ?r ?x ?a ?s] =>
               apply (dq_refused r x a _ s H C) in D
           end.
  all: destruct D as (J & R & S); try solve [keep3 J R S].
  split; [|split]; [|keep R|].
  - (* XFER_ACK, END: the transfer awaiting its acknowledgement finishes with success *)
    destruct (stage_parts s J) as (N1 & N2 & N3 & D1 & D2).
    assert (Hpa : In xid (pend_ack s)) by (apply mem_N_In; assumption).
    assert (Hps : ~ In xid (map fst (pend_start s))) by (intros X; destruct (D1 _ X); tauto).
    assert (Htmp : ~ In xid (tmp_id s)) by (intros X; apply (D2 _ X); exact Hpa).
    apply (txq_finish1 s _ xid J); [eapply dict_get_key; eassumption|..];
      unfold stage_ids; ep_cbn; log_norm; try reflexivity.
    + erewrite keys_dict_del, dict_set_keys by eassumption. reflexivity.
    + rewrite (remove_N_notin xid (map fst (pend_start s))) by exact Hps.
      rewrite filter_notin_id; [reflexivity|].
      intros x Hx [E|[]]. apply Htmp. rewrite E. exact Hx.
  - (* it was awaiting its acknowledgement, so it had been started *)
    apply (sb_succ _ _ _ _ xid S).
    + apply in_or_app. right. apply mem_N_In. assumption.
    + ep_cbn. log_norm. reflexivity.
    + sub_ids.
Qed.

Lemma dq_queue data s : dq s -> dq (queued data s).
Proof.
  intros (J & R & S). split; [|split]; [|keep R|keep S].
  apply (txq_queue (tx_view s) _ J); tx_open.
  - rewrite keys_dict_set. destruct (mem_N _ _) eqn:X; [|reflexivity].
    apply mem_N_In, (q_iff _ J) in X. destruct X as [X _].
    apply (q_lt _ J) in X. cbn [tx_view tv_next] in X. lia.
  - rewrite map_app. cbn [map fst]. rewrite <- app_assoc. apply Permutation_middle.
Qed.

Lemma dq_pop id data s :
  dq s -> dq (s <| rx_map := dict_del id (rx_map s) |> <| trace := trace s ++ [EPop id data] |>).
Proof.
  intros (J & R & S). split; [|split]; [keep J| |keep S].
  unfold rxq in *. ep_cbn. log_norm. rewrite keys_dict_del. apply rxq_del, R.
Qed.

Lemma dq_start id data rest s :
  pend_start s = (id, data) :: rest -> tx_tmp s = None -> dq s -> dq (xfer_started id data rest s).
Proof.
  intros Hp Ht (J & R & S). split; [|split]; [|keep R|].
  - apply (txq_perm _ _ J); tx_open. rewrite Hp, Ht. apply Permutation_middle.
  - apply (sb_start _ _ _ _ id S); [ep_cbn; log_norm; reflexivity|sub_ids].
Qed.

(** Its last segment sent, the transfer awaits its acknowledgement. *)
Lemma dq_last id data F n s :
  tx_tmp s = Some (id, data) -> dq s ->
  dq (pq_trigger' (send_frame' F (s <| tx_len := n |>) <| pend_ack := pend_ack s ++ [id] |> <| tx_tmp := None |>
                     <| tx_len := 0 |>)).
Proof.
  intros Ht (J & R & S). split; [|split]; [|keep R|].
  - apply (txq_perm _ _ J); tx_open. rewrite Ht. apply Permutation_app_head, Permutation_cons_append.
  - apply (sb_sub _ _ _ _ S); [ep_cbn; log_norm; reflexivity|sub_ids].
Qed.

Lemma dq_send_next s : dq s -> dq (send_next s).
Proof.
  intros D. destruct (send_next_spec s); [exact D|exact D| |eapply dq_last; eassumption].
  destruct D as (J & R & S). keep3 J R S.
Qed.

Lemma dq_pq b s : dq s -> dq (pq_done b s).
Proof. intros (J & R & S). keep3 J R S. Qed.
Lemma dq_pump i b s : dq s -> dq (pump_done i b s).
Proof. intros (J & R & S). keep3 J R S. Qed.

Lemma dq_run c ops : dq (run c ops).
Proof.
  apply run_invariant.
  { (* nothing queued, returned, reported or logged yet *)
    split; [|split].
    - split; cbn; try constructor; try tauto; intros id [].
    - split; cbn; [constructor|]. intros id. split; [intros []|discriminate].
    - split; cbn; [exact I|]. intros id []. }
  apply (step_ind dq dq); try (intros; assumption).
  - intros s o s' D _ Ho Sp. destruct Sp; try discriminate Ho;
      repeat match goal with H : txp_spec _ _ _ |- _ => destruct H | H : pq_spec _ _ |- _ => destruct H end;
      cbn [fst snd].
    all: repeat lazymatch goal with
         | |- dq (pq_done _ _) => apply dq_pq
         | |- dq (pump_done _ _ _) => apply dq_pump
         | |- dq (do_close' _) => apply dq_close
         | |- dq (send_next _) => apply dq_send_next
         | |- dq (xfer_started _ _ _ _) => apply dq_start; [assumption..|]
         | |- dq (queued _ _) => apply dq_queue
         | |- dq (set trace _ (set rx_map _ _)) => apply dq_pop
         end.
    all: destruct D as (J & R & S); keep3 J R S.
  - intros s fr rest J _ _. apply dq_frame, J.
  - intros s k (J & R & S). keep3 J R S.
Qed.

Definition txq_run c ops : txq (run c ops) := proj1 (dq_run c ops).
Definition rxq_run c ops : rxq (run c ops) := proj1 (proj2 (dq_run c ops)).
Definition sbf_run c ops : sbf (run c ops) := proj2 (proj2 (dq_run c ops)).

(** The send queue holds exactly the transfers queued and not yet finished. *)
Theorem tx_queue : forall c ops id,
  let s := run c ops in
  In id (q_tx_queue s) <->
  (In (ERet 1 (PStrNum id)) (trace s)
   /\ ~ exists len r, In (ESig SigSendFinished [PStrNum id; PInt len; PStr r]) (trace s)).
Proof.
  intros c ops id s. pose proof (q_iff _ (txq_run c ops) id) as H. cbn [tx_view tv_keys tv_ret tv_fin] in H.
  fold s in H. unfold q_tx_queue. rewrite H, in_ret_ids, in_fin_ids. reflexivity.
Qed.

(** No transfer is reported finished twice ([fin_ids]: the ids of the
    send_bundle_finished signals of the trace, in order). *)
Theorem finished_at_most_once : forall c ops, NoDup (fin_ids (trace (run c ops))).
Proof. intros c ops. exact (q_fin_nodup _ (txq_run c ops)). Qed.

Theorem finished_at_most_once_split : forall c ops id l1 r1 l2 r2 a b d,
  trace (run c ops) = a ++ ESig SigSendFinished [PStrNum id; PInt l1; PStr r1] :: b
                        ++ ESig SigSendFinished [PStrNum id; PInt l2; PStr r2] :: d -> False.
Proof.
  intros c ops id l1 r1 l2 r2 a b d E. pose proof (finished_at_most_once c ops) as N.
  rewrite E in N. unfold fin_ids in N. rewrite flat_map_app in N. apply NoDup_app_iff in N. destruct N as (_ & N & _).
  cbn [flat_map fin_of app] in N. rewrite flat_map_app in N. cbn [flat_map fin_of app] in N.
  inversion N as [|? ? Hn _]; subst. apply Hn. apply in_or_app. right. left. reflexivity.
Qed.

(** Every finished transfer had been queued, with an id below the next one. *)
Theorem finished_was_queued : forall c ops id len r,
  let s := run c ops in
  In (ESig SigSendFinished [PStrNum id; PInt len; PStr r]) (trace s) ->
  In (ERet 1 (PStrNum id)) (trace s) /\ id < next_id s.
Proof.
  intros c ops id len r s H. pose proof (txq_run c ops) as J. fold s in J.
  assert (Hf : In id (fin_ids (trace s))) by (apply in_fin_ids; eauto).
  pose proof (q_fin_ret _ J id Hf) as Hr. cbn [tx_view tv_ret] in Hr.
  split; [apply in_ret_ids, Hr|]. exact (q_lt _ J id Hr).
Qed.

(** The receive queue holds exactly the transfers whose last event among
    recv_bundle_finished / recv_bundle_pop_data is a recv_bundle_finished. *)
Theorem rx_queue : forall c ops id,
  let s := run c ops in In id (q_rx_queue s) <-> rx_avail id (trace s) = true.
Proof. intros c ops id s. exact (r_iff _ _ (rxq_run c ops) id). Qed.

Theorem rx_queue_nodup : forall c ops, NoDup (q_rx_queue (run c ops)).
Proof. intros c ops. exact (r_nodup _ _ (rxq_run c ops)). Qed.

(** A pop removes the transfer: popping the same id again without a new
    delivery in between is answered with KeyError. *)
Theorem pop_once : forall c ops id,
  let s := run c ops in
  closed s = false -> rx_avail id (trace s) = false ->
  step s (OPop id) = emit (EExc EX_KEY) s.
Proof.
  intros c ops id s Hc Ha. apply pop_unknown; [exact Hc|].
  destruct (dict_get id (rx_map s)) as [d|] eqn:Hg; [|reflexivity].
  apply dict_get_key in Hg. apply (rx_queue c ops id) in Hg. fold s in Hg. congruence.
Qed.

Lemma rx_avail_after_pop id d tr evs :
  (forall e, In e evs -> forall b, In (id, b) (rxlog_of e) -> b = false) ->
  rx_avail id (tr ++ [EPop id d] ++ evs) = false.
Proof.
  intros H. unfold rx_avail, rx_log. rewrite !flat_map_app. cbn [flat_map rxlog_of app].
  unfold last_is_delivery. rewrite !fold_left_app. cbn [fold_left fst snd]. rewrite N.eqb_refl.
  assert (G : forall log, (forall p, In p log -> fst p = id -> snd p = false) ->
              fold_left (fun b (p : N * bool) => if fst p =? id then snd p else b) log false = false).
  { induction log as [|p log IH]; intros Hl; cbn [fold_left]; [reflexivity|].
    destruct (N.eqb_spec (fst p) id) as [E|E].
    - rewrite (Hl p (or_introl eq_refl) E). apply IH. intros q Hq. apply Hl. right. exact Hq.
    - apply IH. intros q Hq. apply Hl. right. exact Hq. }
  apply G. intros [i b] Hp E. cbn [fst snd] in *. subst i.
  apply in_flat_map in Hp. destruct Hp as [e [He Hi]]. eapply H; eassumption.
Qed.

Lemma in_started_l id tr :
  In id (started_l (sb_log tr)) -> exists n, In (ESig SigSendStarted [PStrNum id; PInt n]) tr.
Proof.
  unfold started_l, sb_log. rewrite in_map_iff. intros [[i b] [E H]]. cbn [fst] in E. subst i.
  apply filter_In in H. destruct H as [H Hb]. cbn [snd] in Hb. subst b.
  apply in_flat_map in H. destruct H as [e [He Hi]].
  destruct e as [sg args| | | |]; try contradiction.
  destruct sg; try contradiction.
  - destruct args as [|[] [|[] [|]]]; try contradiction.
    destruct Hi as [Hi|[]]. injection Hi as <-. eauto.
  - destruct args as [|[] [|[] [|[] [|]]]]; try contradiction.
    cbn [sblog_of] in Hi. destruct (tag =? RES_SUCCESS); [|contradiction].
    destruct Hi as [Hi|[]]. discriminate Hi.
Qed.

Theorem started_before_finished_success : forall c ops id len pre post,
  trace (run c ops) = pre ++ ESig SigSendFinished [PStrNum id; PInt len; PStr RES_SUCCESS] :: post ->
  exists n, In (ESig SigSendStarted [PStrNum id; PInt n]) pre.
Proof.
  intros c ops id len pre post E. pose proof (sb_chk _ _ (sbf_run c ops)) as C.
  rewrite E in C. unfold sb_log in C. rewrite flat_map_app in C. apply chkl_app in C. destruct C as [_ C].
  cbn [sb_log flat_map sblog_of N.eqb RES_SUCCESS app chkl] in C. destruct C as [C _].
  cbn [app] in C. apply in_started_l, C.
Qed.
