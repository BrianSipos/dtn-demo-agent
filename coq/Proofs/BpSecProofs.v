(** Proofs about [Model/BpSec.v]: AAD agreement between source and verifier,
    injectivity of the authenticated input in exactly the covered content
    (binding), completeness / soundness of BIB verification and of BCB
    decryption relative to explicitly stated idealised primitives. *)
From Coq Require Import List NArith PeanoNat Bool Lia.
From DTN Require Import Lib.Bytes Lib.Cbor Lib.CborProofs Model.BpSec.
Import ListNotations.
Local Open Scope N_scope.

(* [injection] on [Some (cov_struct ..) = Some (cov_struct ..)] does not stop at [Some]: it unfolds both
   structures, strips the array's head octet and leaves the two encodings spelled out *)
Lemma some_inj {A} (a b : A) : Some a = Some b -> a = b.
Proof. intros H. injection H as H. exact H. Qed.

Lemma encode_seq_inj l : forall l', Forall wf l -> Forall wf l' -> encode_seq l = encode_seq l' -> l = l'.
Proof.
  induction l as [|x l IH]; intros [|y l'] Hl Hl' E; rewrite ?encode_seq_nil, ?encode_seq_cons in E.
  - reflexivity.
  - symmetry in E. apply app_eq_nil in E as [E _]. destruct (encode_nonempty y E).
  - apply app_eq_nil in E as [E _]. destruct (encode_nonempty x E).
  - inversion Hl; subst. inversion Hl'; subst.
    apply encode_prefix_free in E as [-> E]; [|assumption|assumption].
    f_equal. apply IH; assumption.
Qed.

Lemma concat_inj_shape {K A} (n : K -> nat) (s : list K) : forall x y : list (list A),
  Forall2 (fun k a => length a = n k) s x -> Forall2 (fun k a => length a = n k) s y ->
  concat x = concat y -> x = y.
Proof.
  induction s as [|k s IH]; intros x y Fx Fy E; inversion Fx; inversion Fy; subst; [reflexivity|].
  cbn [concat] in E. apply app_inj_len in E as [-> E]; [|congruence].
  f_equal. apply IH; assumption.
Qed.

Definition entry_len (kf : cbor * N) : nat :=
  match fst kf with
  | CUint 0 => if flag_meta (snd kf) then 1%nat else 0%nat
  | _ => ((if flag_meta (snd kf) then 3 else 0) + (if flag_btsd (snd kf) then 1 else 0))%nat
  end.

Lemma block_items_length c f :
  length (block_items c f) = ((if flag_meta f then 3 else 0) + (if flag_btsd f then 1 else 0))%nat.
Proof. unfold block_items. rewrite app_length. destruct (flag_meta f), (flag_btsd f); reflexivity. Qed.

Lemma scope_entry_length b sec tgt k f e :
  scope_entry b sec tgt k f = Some e -> length e = entry_len (k, f).
Proof.
  unfold scope_entry, entry_len. cbn [fst snd]. intros H.
  (* the keys with an entry: 0, block number [p], -1, -2 *)
  destruct k as [[|p]|[|[p|p|]]| | | | | |]; try discriminate.
  - injection H as <-. destruct (flag_meta f); reflexivity.
  - destruct (find_block b (N.pos p)); [|discriminate]. injection H as <-. apply block_items_length.
  - injection H as <-. apply block_items_length.
  - injection H as <-. apply block_items_length.
Qed.

Lemma scope_items_shape b sec tgt s : forall ents,
  scope_items b sec tgt s = Some ents -> Forall2 (fun kf e => length e = entry_len kf) s ents.
Proof.
  induction s as [|[k f] s IH]; intros ents H; cbn [scope_items] in H.
  - injection H as <-. constructor.
  - destruct (scope_entry b sec tgt k f) eqn:E; [|discriminate].
    destruct (scope_items b sec tgt s) eqn:R; [|discriminate].
    injection H as <-. constructor; [eapply scope_entry_length; eassumption | apply IH; reflexivity].
Qed.

Definition cov_items (c : ctx_t) : list cbor :=
  [cv_source c; scope_map (cv_scope c)] ++ concat (cv_blocks c) ++ [CBstr (cv_addl c)].

(** MAC_structure / Sig_structure ([extra] = the payload) and Enc_structure
    ([extra] empty) over a context. *)
Definition cov_struct (c : ctx_t) (extra : list cbor) : bytes :=
  encode (CArr (CTstr (cv_context c) :: CBstr (cv_protected c) :: CBstr (encode_seq (cov_items c)) :: extra)).

Lemma struct_covered o extra :
  option_map (fun aad => encode (CArr (CTstr (kind_ctx (op_kind o)) :: CBstr (norm_protected (op_protected o)) ::
                                       CBstr aad :: extra))) (op_aad o) =
  option_map (fun c => cov_struct c extra) (covered_ctx o).
Proof.
  unfold op_aad, external_aad, aad_items, covered_ctx.
  destruct (scope_items (op_bundle o) (op_sec o) (op_tgt o) (canon_scope (op_scope o))); reflexivity.
Qed.

Lemma mac_input_covered o : mac_input o = option_map (fun x => cov_struct (fst x) [CBstr (snd x)]) (covered o).
Proof.
  unfold mac_input, auth_structure. rewrite struct_covered. unfold covered. destruct (covered_ctx o); reflexivity.
Qed.

Lemma enc_input_covered o : enc_input o = option_map (fun c => cov_struct c []) (covered_ctx o).
Proof. exact (struct_covered o []). Qed.

(** Well-formedness: every item bound into the AAD is a well-formed CBOR item
    (integers below 2^64, octets below 256, lengths below 2^64) and the AAD,
    the protected bucket, the context string and the payload are octet
    strings shorter than 2^64. *)
Definition okbytes (x : bytes) : Prop := wf (CBstr x).

Definition wf_ctx (c : ctx_t) : Prop :=
  okbytes (cv_context c) /\ okbytes (cv_protected c) /\ Forall wf (cov_items c) /\
  okbytes (encode_seq (cov_items c)).

Definition wf_cov (x : ctx_t * bytes) : Prop := wf_ctx (fst x) /\ okbytes (snd x).

Definition cov_shape (c : ctx_t) : Prop :=
  Forall2 (fun kf e => length e = entry_len kf) (cv_scope c) (cv_blocks c).

Definition wf_op (o : secop) : Prop :=
  match covered o with Some x => wf_cov x | None => True end.

Definition wf_op_ctx (o : secop) : Prop :=
  match covered_ctx o with Some c => wf_ctx c | None => True end.

Definition wf_ctxb (c : ctx_t) : bool :=
  wfb (CBstr (cv_context c)) && wfb (CBstr (cv_protected c)) && forallb wfb (cov_items c) &&
  wfb (CBstr (encode_seq (cov_items c))).

Lemma wf_ctxb_ok c : wf_ctxb c = true -> wf_ctx c.
Proof.
  unfold wf_ctxb, wf_ctx, okbytes. rewrite !andb_true_iff, !wfb_spec, forallb_forall, Forall_forall.
  intros [[[H1 H2] H3] H4]. split; [exact H1|]. split; [exact H2|]. split; [|exact H4].
  intros x Hx. apply wfb_spec, H3, Hx.
Qed.

Definition wf_opb (o : secop) : bool :=
  match covered o with Some x => wf_ctxb (fst x) && wfb (CBstr (snd x)) | None => true end.

Lemma wf_opb_ok o : wf_opb o = true -> wf_op o.
Proof.
  unfold wf_opb, wf_op. destruct (covered o) as [x|]; [|trivial]. intros H.
  apply andb_true_iff in H as [H1 H2]. split; [apply wf_ctxb_ok, H1 | apply wfb_spec, H2].
Qed.

Definition wf_op_ctxb (o : secop) : bool :=
  match covered_ctx o with Some c => wf_ctxb c | None => true end.

Lemma wf_op_ctxb_ok o : wf_op_ctxb o = true -> wf_op_ctx o.
Proof. unfold wf_op_ctxb, wf_op_ctx. destruct (covered_ctx o); [apply wf_ctxb_ok|trivial]. Qed.

Lemma covered_ctx_shape o c : covered_ctx o = Some c -> cov_shape c.
Proof.
  unfold covered_ctx, cov_shape. intros H.
  destruct (scope_items _ _ _ _) eqn:E; [|discriminate]. injection H as <-. cbn.
  eapply scope_items_shape; eassumption.
Qed.

Lemma covered_shape o x : covered o = Some x -> cov_shape (fst x).
Proof.
  unfold covered. destruct (covered_ctx o) eqn:E; [|discriminate]. intros H. injection H as <-.
  exact (covered_ctx_shape _ _ E).
Qed.

Lemma scope_map_inj s s' : scope_map s = scope_map s' -> s = s'.
Proof.
  unfold scope_map. intros H. injection H as H. revert s' H.
  induction s as [|[k f] s IH]; intros [|[k' f'] s'] H; cbn in H; try discriminate; [reflexivity|].
  injection H as -> -> H. f_equal. apply IH, H.
Qed.

Lemma cov_items_inj c c' :
  cov_shape c -> cov_shape c' -> cov_items c = cov_items c' ->
  cv_source c = cv_source c' /\ cv_scope c = cv_scope c' /\ cv_blocks c = cv_blocks c' /\ cv_addl c = cv_addl c'.
Proof.
  unfold cov_items, cov_shape. intros S S' E. cbn [app] in E.
  injection E as Es Em E. apply (f_equal CMap), scope_map_inj in Em.
  apply app_inj_tail in E as [E Ea]. injection Ea as Ea.
  repeat split; try assumption.
  rewrite Em in S. exact (concat_inj_shape entry_len _ _ _ S S' E).
Qed.

Lemma wf_okbytes_tstr x : okbytes x -> wf (CTstr x).
Proof. exact (fun H => H). Qed.

Lemma wf_cov_struct c e :
  wf_ctx c -> Forall wf e -> (length e <= 1)%nat ->
  wf (CArr (CTstr (cv_context c) :: CBstr (cv_protected c) :: CBstr (encode_seq (cov_items c)) :: e)).
Proof.
  intros (W1 & W2 & _ & W4) We L. apply wf_CArr. split; [cbn [length]; lia|].
  repeat (apply Forall_cons; [assumption|]). exact We.
Qed.

Lemma cov_struct_inj c c' e e' :
  wf_ctx c -> wf_ctx c' -> cov_shape c -> cov_shape c' ->
  Forall wf e -> Forall wf e' -> (length e <= 1)%nat -> (length e' <= 1)%nat ->
  cov_struct c e = cov_struct c' e' -> c = c' /\ e = e'.
Proof.
  intros W W' S S' We We' L L' E.
  apply encode_inj in E; [|apply wf_cov_struct; assumption|apply wf_cov_struct; assumption].
  injection E as E1 E2 E3 E4. split; [|exact E4].
  apply encode_seq_inj in E3; [|apply W|apply W'].
  apply cov_items_inj in E3 as (A & B & C & D); [|assumption|assumption].
  destruct c, c'; cbn in *; subst; reflexivity.
Qed.

(** Binding: the MAC / signature input is an injective function of exactly
    the covered content *)
Theorem mac_input_binding o o' :
  wf_op o -> wf_op o' -> (mac_input o = mac_input o' <-> covered o = covered o').
Proof.
  unfold wf_op. intros W W'. rewrite !mac_input_covered. split; [|intros ->; reflexivity].
  destruct (covered o) as [[c p]|] eqn:C, (covered o') as [[c' p']|] eqn:C'; cbn [option_map];
    intros H; try discriminate; [|reflexivity].
  apply some_inj in H. apply covered_shape in C, C'. destruct W as [Wc Wp], W' as [Wc' Wp'].
  destruct (cov_struct_inj c c' [CBstr p] [CBstr p'] Wc Wc' C C' (Forall_cons (CBstr p) Wp (Forall_nil wf))
              (Forall_cons (CBstr p') Wp' (Forall_nil wf)) (le_n 1) (le_n 1) H) as [-> E].
  injection E as ->. reflexivity.
Qed.

Theorem enc_input_binding o o' :
  wf_op_ctx o -> wf_op_ctx o' -> (enc_input o = enc_input o' <-> covered_ctx o = covered_ctx o').
Proof.
  unfold wf_op_ctx. intros W W'. rewrite !enc_input_covered. split; [|intros ->; reflexivity].
  destruct (covered_ctx o) as [c|] eqn:C, (covered_ctx o') as [c'|] eqn:C'; cbn [option_map];
    intros H; try discriminate; [|reflexivity].
  apply some_inj in H. apply covered_ctx_shape in C, C'. f_equal.
  apply (cov_struct_inj c c' [] [] W W' C C' (Forall_nil wf) (Forall_nil wf) (Nat.le_0_l 1) (Nat.le_0_l 1) H).
Qed.

Lemma insert_kv_In kv l x : In x (insert_kv kv l) <-> x = kv \/ In x l.
Proof.
  induction l as [|h t IH]; cbn [insert_kv].
  - cbn. intuition.
  - destruct (key_ltb _ _); cbn [In]; [intuition|]. rewrite IH. intuition.
Qed.

Lemma canon_scope_In s x : In x (canon_scope s) <-> In x s.
Proof.
  induction s as [|h t IH]; cbn [canon_scope fold_right]; [reflexivity|].
  fold (canon_scope t). rewrite insert_kv_In, IH. cbn [In]. intuition.
Qed.

Lemma scope_items_congr b sec tgt b' sec' tgt' s :
  (forall k f, In (k, f) s -> scope_entry b' sec' tgt' k f = scope_entry b sec tgt k f) ->
  scope_items b' sec' tgt' s = scope_items b sec tgt s.
Proof.
  induction s as [|[k f] s IH]; intros H; cbn [scope_items]; [reflexivity|].
  rewrite (H k f) by (left; reflexivity). rewrite IH; [reflexivity|].
  intros k0 f0 Hin. apply H. right. exact Hin.
Qed.

Lemma aad_congr b sec tgt b' sec' tgt' source s addl :
  (forall k f, In (k, f) s -> scope_entry b' sec' tgt' k f = scope_entry b sec tgt k f) ->
  external_aad b' sec' tgt' source s addl = external_aad b sec tgt source s addl.
Proof.
  intros H. unfold external_aad, aad_items.
  rewrite (scope_items_congr b sec tgt b' sec' tgt'); [reflexivity|].
  intros k f Hin. apply H. apply canon_scope_In. exact Hin.
Qed.

Lemma find_app {A} (f : A -> bool) l1 l2 :
  find f (l1 ++ l2) = match find f l1 with Some x => Some x | None => find f l2 end.
Proof. induction l1 as [|x l1 IH]; cbn; [reflexivity|]. destruct (f x); [reflexivity|exact IH]. Qed.

Lemma find_block_insert b c n : cb_num c <> n -> find_block (insert_block b c) n = find_block b n.
Proof.
  intros Hn. apply N.eqb_neq in Hn. unfold find_block, insert_block. cbn [b_blocks].
  rewrite <- (rev_involutive (b_blocks b)) at 2.
  destruct (rev (b_blocks b)) as [|last r]; cbn [rev]; rewrite ?find_app; cbn [find]; rewrite Hn; reflexivity.
Qed.

Lemma block_items_same c c' f :
  meta_items c' = meta_items c -> flag_btsd f = false \/ cb_btsd c' = cb_btsd c -> block_items c' f = block_items c f.
Proof. intros Hm [Hb|Hb]; unfold block_items; rewrite Hm, Hb; reflexivity. Qed.

(** Two views of a bundle give the same contribution for a scope entry when
    they agree on what the entry names: the primary block for key 0 (if its
    METADATA bit is set), block n for key n, the target for key -1 and the
    security block for key -2, a block's BTSD mattering only under the BTSD bit. *)
Lemma scope_entry_congr b sec tgt b' sec' tgt' k f :
  meta_items sec' = meta_items sec -> meta_items tgt' = meta_items tgt ->
  (k = CNint 0 -> flag_btsd f = false \/ cb_btsd tgt' = cb_btsd tgt) ->
  (k = CNint 1 -> flag_btsd f = false \/ cb_btsd sec' = cb_btsd sec) ->
  (k = CUint 0 -> flag_meta f = true -> b_pri b' = b_pri b) ->
  (forall p, k = CUint (N.pos p) ->
     option_map (fun c => block_items c f) (find_block b' (N.pos p)) =
     option_map (fun c => block_items c f) (find_block b (N.pos p))) ->
  scope_entry b' sec' tgt' k f = scope_entry b sec tgt k f.
Proof.
  intros Hsec Htgt Ht Hs Hp Hb. unfold scope_entry.
  (* keys 0, [p], -1, -2; every other key has no entry on either side *)
  destruct k as [[|p]|[|[p|p|]]| | | | | |]; try reflexivity.
  - destruct (flag_meta f); [rewrite (Hp eq_refl eq_refl)|]; reflexivity.
  - apply Hb. reflexivity.
  - f_equal. apply block_items_same; [exact Htgt|exact (Ht eq_refl)].
  - f_equal. apply block_items_same; [exact Hsec|exact (Hs eq_refl)].
Qed.

(** a block number the scope names is not that of a security block it does not name *)
Lemma scope_key_not_sec (s : scope) sec sec' p f :
  meta_items sec' = meta_items sec -> ~ In (CUint (cb_num sec)) (map fst s) ->
  In (CUint (N.pos p), f) s -> cb_num sec' <> N.pos p.
Proof.
  intros Hsec Hnum Hin E. apply Hnum. apply in_map_iff. exists (CUint (N.pos p), f). split; [|exact Hin].
  cbn. f_equal. injection Hsec as _ Hn _. congruence.
Qed.

(** The verifier recomputes, from the bundle it received (the security block
    now inserted, its BTSD now filled in), the AAD the source computed while
    the security block "is not yet part of the bundle". *)
Theorem aad_agreement b sec sec' tgt tgt' source s addl :
  meta_items sec' = meta_items sec ->
  meta_items tgt' = meta_items tgt -> cb_btsd tgt' = cb_btsd tgt ->
  (forall f, In (CNint 1, f) s -> flag_btsd f = false) ->
  ~ In (CUint (cb_num sec)) (map fst s) ->
  external_aad (insert_block b sec') sec' tgt' source s addl = external_aad b sec tgt source s addl.
Proof.
  intros Hsec Htm Htb Hself Hnum. apply aad_congr. intros k f Hin.
  apply scope_entry_congr; try assumption; try reflexivity.
  - intros _. right. exact Htb.
  - intros ->. left. exact (Hself f Hin).
  - intros p ->. rewrite find_block_insert; [reflexivity|]. exact (scope_key_not_sec s sec sec' p f Hsec Hnum Hin).
Qed.

(** The covered content does not change when blocks that are neither the
    target, nor the security block, nor named in the scope are altered in any
    way, nor when CRC types (of any block) change. *)
Theorem covered_outside_scope o o' :
  op_kind o' = op_kind o -> op_protected o' = op_protected o -> op_source o' = op_source o ->
  op_scope o' = op_scope o -> op_addl o' = op_addl o ->
  meta_items (op_sec o') = meta_items (op_sec o) ->
  meta_items (op_tgt o') = meta_items (op_tgt o) -> cb_btsd (op_tgt o') = cb_btsd (op_tgt o) ->
  (forall f, In (CNint 1, f) (op_scope o) -> flag_btsd f = false) ->
  (forall f, In (CUint 0, f) (op_scope o) -> flag_meta f = true -> b_pri (op_bundle o') = b_pri (op_bundle o)) ->
  (forall p f, In (CUint (N.pos p), f) (op_scope o) ->
     option_map (fun c => block_items c f) (find_block (op_bundle o') (N.pos p)) =
     option_map (fun c => block_items c f) (find_block (op_bundle o) (N.pos p))) ->
  covered o' = covered o.
Proof.
  intros Hk Hp Hs Hsc Ha Hsec Htm Htb Hself Hpri Hblk. unfold covered, covered_ctx. rewrite Hk, Hp, Hs, Hsc, Ha, Htb.
  rewrite (scope_items_congr (op_bundle o) (op_sec o) (op_tgt o) (op_bundle o') (op_sec o') (op_tgt o')); [reflexivity|].
  intros k f Hin. apply (proj1 (canon_scope_In _ _)) in Hin. apply scope_entry_congr; try assumption.
  - intros _. right. exact Htb.
  - intros ->. left. exact (Hself f Hin).
  - intros ->. exact (Hpri f Hin).
  - intros p ->. exact (Hblk p f Hin).
Qed.

Lemma pri_crct_app p l : (3 <= length p)%nat -> pri_crct (p ++ l) = pri_crct p.
Proof. intros H. unfold pri_crct. rewrite nth_error_app1 by lia. reflexivity. Qed.

Lemma primary_item_tail p :
  exists t, primary_item p = CArr (p ++ t) /\
            length t = if (pri_crct p =? 1) || (pri_crct p =? 2) then 1%nat else 0%nat.
Proof.
  unfold primary_item. destruct (pri_crct p) as [|[q|[q|q|]|]];
    (eexists; split; reflexivity) || (exists []; rewrite app_nil_r; split; reflexivity).
Qed.

(** The primary-block item bound into the AAD (CRC recomputed) determines the
    primary block's fields: nothing of the primary block is lost by taking
    [bytes(blk)] after [update_crc]. *)
Theorem primary_item_inj p p' :
  (3 <= length p)%nat -> (3 <= length p')%nat -> primary_item p = primary_item p' -> p = p'.
Proof.
  intros L L' E.
  destruct (primary_item_tail p) as (t & Ep & Lt), (primary_item_tail p') as (t' & Ep' & Lt').
  rewrite Ep, Ep' in E. injection E as E.
  (* the CRC type is one of the first three items, so both sides have the
     same, and what was appended has the same length *)
  assert (C : pri_crct p = pri_crct p') by (rewrite <- (pri_crct_app p t L), E; apply pri_crct_app, L').
  rewrite C, <- Lt' in Lt.
  assert (Ll : length p = length p') by (apply (f_equal (@length _)) in E; rewrite !app_length in E; lia).
  apply app_inj_len in E as [E _]; assumption.
Qed.

Lemma all_some_cons {A} (x : option A) l r :
  all_some (x :: l) = Some r -> exists y ys, x = Some y /\ all_some l = Some ys /\ r = y :: ys.
Proof.
  cbn [all_some]. destruct x as [y|]; [|discriminate]. destruct (all_some l) as [ys|]; [|discriminate].
  cbn. intros H. injection H as <-. exists y, ys. repeat split.
Qed.

Lemma all_some_map_id {A B} (f : A -> B) (g : B -> option A) l :
  (forall x, g (f x) = Some x) -> all_some (map g (map f l)) = Some l.
Proof.
  intros H. induction l as [|x l IH]; cbn [map all_some]; [reflexivity|]. rewrite H, IH. reflexivity.
Qed.

Lemma all_some_map_nth {A B} (f : A -> option B) (l : list A) : forall rs,
  all_some (map f l) = Some rs ->
  length rs = length l /\
  forall i x, nth_error l i = Some x -> exists y, nth_error rs i = Some y /\ f x = Some y.
Proof.
  induction l as [|a l IH]; intros rs H; cbn [map] in H.
  - injection H as <-. split; [reflexivity|]. intros [|i] x Hx; discriminate.
  - apply all_some_cons in H as (y & ys & Hy & Hys & ->). destruct (IH ys Hys) as [L N].
    split; [cbn; rewrite L; reflexivity|].
    intros [|i] x Hx; cbn [nth_error] in *.
    + injection Hx as <-. exists y. split; [reflexivity|exact Hy].
    + apply N, Hx.
Qed.

Lemma rcp_of_item r : rcp_of (rcp_item r) = Some r.
Proof. destruct r; reflexivity. Qed.

Lemma kind_of_code_code k : kind_of_code (kind_code k) = Some k.
Proof. destruct k; reflexivity. Qed.

(** a message is in the shape its kind carries on the wire *)
Definition cose_shape (k : ckind) (m : cose) : Prop :=
  match k with
  | KMac0 | KSign1 => c_recips m = []
  | KMac => True
  | KEnc0 => c_recips m = [] /\ c_tag m = []
  | KEnc => c_tag m = []
  end.

Lemma cose_of_item_item k m : cose_shape k m -> cose_of_item k (cose_item k m) = Some m.
Proof.
  destruct m as [p u t rs]. pose proof (all_some_map_id rcp_item rcp_of rs rcp_of_item) as R.
  destruct k; cbn [cose_shape c_recips c_tag]; intros H; subst; try (destruct H; subst);
    cbn [cose_item cose_of_item c_protected c_unprot c_tag c_recips]; rewrite ?R; reflexivity.
Qed.

Lemma cose_of_result_value k m :
  wf (cose_item k m) -> (depth (cose_item k m) <= cose_fuel)%nat -> cose_shape k m ->
  cose_of_result (kind_code k) (result_value k m) = Some (k, m).
Proof.
  intros W D S. unfold cose_of_result, result_value. rewrite kind_of_code_code.
  rewrite decode_all_encode by assumption. rewrite cose_of_item_item by assumption. reflexivity.
Qed.

Lemma pairs_of_items ps : pairs_of (CArr (map pair_item ps)) = Some ps.
Proof. cbn [pairs_of]. apply all_some_map_id. intros []; reflexivity. Qed.

Lemma results_of_items rss : results_of (CArr (map (fun rs => CArr (map pair_item rs)) rss)) = Some rss.
Proof. cbn [results_of]. apply (all_some_map_id (fun rs => CArr (map pair_item rs)) pairs_of). exact pairs_of_items. Qed.

Theorem asb_dec_enc a :
  Forall wf (asb_items a) -> Forall (fun v => (depth v <= asb_fuel)%nat) (asb_items a) ->
  eid_norm (a_source a) = a_source a ->
  (N.testbit (a_flags a) 0 = false -> a_params a = []) ->
  asb_dec (asb_enc a) = Some a.
Proof.
  intros W D Hn H. unfold asb_dec, asb_enc. rewrite decode_seq_encode_seq by assumption. clear W D.
  destruct a as [ts cid fl src ps rss]. cbn [a_flags a_params a_source] in *.
  unfold asb_items. cbn [a_targets a_ctxid a_flags a_source a_params a_results app asb_of_items].
  unfold targets_of. rewrite (all_some_map_id CUint uint_of ts (fun n => eq_refl)).
  destruct (N.testbit fl 0) eqn:F; cbn [app].
  - rewrite pairs_of_items, results_of_items, Hn. reflexivity.
  - rewrite results_of_items, (H eq_refl), Hn. reflexivity.
Qed.

Lemma find_block_num b n c : find_block b n = Some c -> cb_num c = n.
Proof. unfold find_block. intros H. apply find_some in H as [_ H]. apply N.eqb_eq, H. Qed.

(** [replace_btsd] keeps block numbers, so lookup commutes with it *)
Lemma find_block_replace b t d n :
  find_block (replace_btsd b t d) n =
  option_map (fun c => if cb_num c =? t then mkCB (cb_type c) (cb_num c) (cb_flags c) (cb_crct c) d else c)
             (find_block b n).
Proof.
  unfold find_block, replace_btsd. cbn [b_blocks]. induction (b_blocks b) as [|c l IH]; cbn [find map]; [reflexivity|].
  replace (cb_num (if cb_num c =? t then _ else c)) with (cb_num c) by (destruct (cb_num c =? t); reflexivity).
  destruct (cb_num c =? n); [reflexivity|exact IH].
Qed.

Lemma find_block_replace_same b t d tgt :
  find_block b t = Some tgt ->
  find_block (replace_btsd b t d) t = Some (mkCB (cb_type tgt) (cb_num tgt) (cb_flags tgt) (cb_crct tgt) d).
Proof.
  intros H. rewrite find_block_replace, H. cbn [option_map]. rewrite (find_block_num _ _ _ H), N.eqb_refl. reflexivity.
Qed.

Lemma find_block_replace_other b t d n : n <> t -> find_block (replace_btsd b t d) n = find_block b n.
Proof.
  intros Hn. rewrite find_block_replace. destruct (find_block b n) as [c|] eqn:F; [|reflexivity]. cbn [option_map].
  rewrite (find_block_num _ _ _ F). apply N.eqb_neq in Hn. rewrite Hn. reflexivity.
Qed.

Lemma find_block_replace_none b t d n : find_block b n = None -> find_block (replace_btsd b t d) n = None.
Proof. intros H. rewrite find_block_replace, H. reflexivity. Qed.

Lemma extract_sec_params tg cid fl src s addl au rss :
  scope_of_cbor (scope_map s) = Some s ->
  extract_secblk (mkASB tg cid fl src (sec_params s addl au) rss) = Some (mkSP addl au s).
Proof.
  intros Hs. unfold extract_secblk, param, sec_params. cbn [a_params].
  destruct addl as [|x addl], au as [u|]; cbn [app find fst snd N.eqb Pos.eqb option_map]; rewrite Hs; reflexivity.
Qed.

Lemma nodupb_sec_params s addl au : nodupb (map fst (sec_params s addl au)) = true.
Proof. unfold sec_params. destruct addl, au; reflexivity. Qed.

(* the variables of [Model.BpSec.Crypto], in the same order *)
Section CryptoProofs.
  Variable key : Type.
  Variable mac : key -> bytes -> bytes.
  Variable mac_ok : key -> bytes -> bytes -> bool.
  Variable enc : key -> bytes -> bytes -> bytes -> bytes.
  Variable dec : key -> bytes -> bytes -> bytes -> option bytes.
  Variable wrap : key -> key -> bytes.
  Variable unwrap : key -> bytes -> option key.
  Variable keyring : cbor -> option key.

  (** correctness of the primitives *)
  Hypothesis mac_ok_mac : forall k m, mac_ok k m (mac k m) = true.
  Hypothesis unwrap_wrap : forall kek cek, unwrap kek (wrap kek cek) = Some cek.
  Hypothesis dec_enc : forall k iv a p, dec k iv a (enc k iv a p) = Some p.
  (** idealised MAC / signature: a tag is valid for at most one (key, message) *)
  Hypothesis mac_inj : forall k k' x y t, mac_ok k x t = true -> mac_ok k' y t = true -> k = k' /\ x = y.
  (** idealised AEAD: only genuine ciphertexts decrypt, and a ciphertext
      determines key, IV, associated data and plaintext *)
  Hypothesis aead_auth : forall k iv a c p, dec k iv a c = Some p -> c = enc k iv a p.
  Hypothesis enc_inj : forall k iv a p k' iv' a' p',
      enc k iv a p = enc k' iv' a' p' -> k = k' /\ iv = iv' /\ a = a' /\ p = p'.

  Notation verify_bib_msg := (verify_bib_msg key mac_ok unwrap keyring).
  Notation verify_bib_result := (verify_bib_result key mac_ok unwrap keyring).
  Notation verify_bib_asb := (verify_bib_asb key mac_ok unwrap keyring).
  Notation verify_bib := (verify_bib key mac_ok unwrap keyring).
  Notation resolve_content_key := (resolve_content_key key unwrap keyring).
  Notation apply_bib_target := (apply_bib_target key mac wrap).
  Notation apply_bib_asb := (apply_bib_asb key mac wrap).
  Notation apply_bib := (apply_bib key mac wrap).
  Notation apply_bcb_target := (apply_bcb_target key enc wrap).
  Notation apply_bcb := (apply_bcb key enc wrap).
  Notation decrypt_msg := (decrypt_msg key dec unwrap keyring).
  Notation decrypt_result := (decrypt_result key dec unwrap keyring).
  Notation verify_bcb_asb := (verify_bcb_asb key dec unwrap keyring).
  Notation verify_bcb := (verify_bcb key dec unwrap keyring).

  Definition auth_kind (k : ckind) : Prop := k = KMac0 \/ k = KMac \/ k = KSign1.
  Definition enc_kind (k : ckind) : Prop := k = KEnc0 \/ k = KEnc.

  (** The keying matches the message kind and the verifier's key ring resolves
      the key identification the source put in the headers. *)
  Definition keys_resolve (kind : ckind) (kg : keying key) (protected : bytes) (unprot : list (cbor * cbor))
             (source : cbor) (sp : secparams) : Prop :=
    match kg with
    | Direct _ k => (kind = KMac0 \/ kind = KSign1 \/ kind = KEnc0) /\
                    keyring (key_hint protected unprot source sp) = Some k
    | Wrapped _ kek cek u => (kind = KMac \/ kind = KEnc) /\ keyring (key_hint [] u source sp) = Some kek
    end.

  Lemma resolve_ok kind kg protected unprot source sp tag :
    keys_resolve kind kg protected unprot source sp ->
    resolve_content_key kind (mkCose protected unprot tag (recips_of key wrap kg)) source sp = [content_key key kg].
  Proof.
    unfold keys_resolve, BpSec.resolve_content_key. destruct kg as [k|kek cek u]; cbn [recips_of content_key c_recips c_protected c_unprot].
    - intros [[->|[->| ->]] H]; rewrite H; reflexivity.
    - intros [[->| ->] H]; cbn [flat_map r_protected r_unprot r_wrapped]; rewrite H, unwrap_wrap; reflexivity.
  Qed.

  (** the message the source builds is in wire shape: recipients exactly for
      a wrapped key, and no tag on an encryption message *)
  Lemma shape_ok kind kg protected unprot source sp tag :
    keys_resolve kind kg protected unprot source sp -> auth_kind kind \/ tag = [] ->
    cose_shape kind (mkCose protected unprot tag (recips_of key wrap kg)).
  Proof.
    unfold keys_resolve, auth_kind. destruct kg as [k|kek cek u]; cbn [recips_of]; intros [K _] T.
    - destruct K as [->|[->| ->]]; [reflexivity|reflexivity|].
      destruct T as [[T|[T|T]]| ->]; try discriminate T. split; reflexivity.
    - destruct K as [->| ->]; [exact I|]. destruct T as [[T|[T|T]]| ->]; try discriminate T. reflexivity.
  Qed.

  (** Result values the source emits decode again: a size condition on the
      headers and recipients, asked for every tag that is itself encodable. *)
  Definition results_decodable (kind : ckind) (kg : keying key) (protected : bytes) (unprot : list (cbor * cbor)) : Prop :=
    forall tag, okbytes tag ->
      wf (cose_item kind (mkCose protected unprot tag (recips_of key wrap kg))) /\
      (depth (cose_item kind (mkCose protected unprot tag (recips_of key wrap kg))) <= cose_fuel)%nat.

  (** What completeness asks of an integrity operation: the keying resolves
      at the verifier, results and tags have sizes that encode, the block
      [sec'] the verifier sees has the header of the source's [sec], and the
      scope names neither the security block's BTSD nor its block number. *)
  Record bib_premises kind kg protected unprot (sec sec' : cblock) source (s : scope) addl au : Prop := {
    bp_kind : auth_kind kind;
    bp_keys : keys_resolve kind kg protected unprot source (mkSP addl au s);
    bp_sizes : results_decodable kind kg protected unprot;
    bp_tag : forall x, okbytes (mac (content_key key kg) x);
    bp_header : meta_items sec' = meta_items sec;
    bp_self : forall f, In (CNint 1, f) s -> flag_btsd f = false;
    bp_num : ~ In (CUint (cb_num sec)) (map fst s) }.

  Lemma bib_target_complete kind kg protected unprot b sec sec' source s addl au t rs :
    bib_premises kind kg protected unprot sec sec' source s addl au ->
    apply_bib_target kind kg protected unprot b sec source s addl t = Some rs ->
    exists tgt, find_block b t = Some tgt /\
      verify_bib_result (insert_block b sec') sec' tgt source (mkSP addl au s) rs = true /\
      nodupb (map fst rs) = true.
  Proof.
    intros [Hk Hkeys Hdec Hmac Hsec Hself Hnum] Happ. unfold BpSec.apply_bib_target in Happ.
    destruct (find_block b t) as [tgt|]; [|discriminate]. exists tgt. split; [reflexivity|].
    destruct (mac_input (mkOp kind protected b sec source s addl tgt)) as [mi|] eqn:Emi; [|discriminate].
    injection Happ as <-. split; [|reflexivity]. unfold BpSec.verify_bib_result.
    destruct (Hdec (mac (content_key key kg) mi) (Hmac mi)) as [W D].
    rewrite cose_of_result_value; [|exact W|exact D|eapply shape_ok; [eassumption|left; exact Hk]].
    unfold BpSec.verify_bib_msg, mac_input, op_aad in Emi |- *.
    cbn [c_protected c_tag sp_scope sp_addl op_bundle op_sec op_tgt op_source op_scope op_addl op_kind op_protected] in Emi |- *.
    rewrite (aad_agreement b sec sec' tgt tgt source s addl), Emi by auto.
    rewrite (resolve_ok kind kg protected unprot source _ _ Hkeys).
    cbn [existsb]. rewrite mac_ok_mac. destruct Hk as [->|[->| ->]]; reflexivity.
  Qed.

  Lemma bib_targets_complete kind kg protected unprot b sec sec' source s addl au :
    bib_premises kind kg protected unprot sec sec' source s addl au ->
    find_block b (cb_num sec) = None ->
    forall targets rss,
    all_some (map (apply_bib_target kind kg protected unprot b sec source s addl) targets) = Some rss ->
    verify_targets (fun tgt rs => verify_bib_result (insert_block b sec') sec' tgt source (mkSP addl au s) rs)
                   (insert_block b sec') targets rss = true /\
    forallb (fun rs => nodupb (map fst rs)) rss = true.
  Proof.
    intros P Hfresh. pose proof (bp_header _ _ _ _ _ _ _ _ _ _ P) as Hsec.
    induction targets as [|t ts IH]; intros rss H; cbn [map] in H.
    - injection H as <-. split; reflexivity.
    - apply all_some_cons in H as (rs & rss' & H1 & H2 & ->).
      destruct (IH rss' H2) as [IH1 IH2].
      destruct (bib_target_complete _ _ _ _ _ _ _ _ _ _ _ _ _ P H1) as (tgt & Hf & V & N).
      assert (Hne : cb_num sec' <> t).
      { intros E. injection Hsec as _ Hn _. rewrite <- E, Hn, Hfresh in Hf. discriminate. }
      cbn [verify_targets forallb]. rewrite (find_block_insert b sec' t Hne), Hf, V, N, IH1, IH2. split; reflexivity.
  Qed.

  (** [verify_bib] of what [apply_bib] produced, at a verifier whose key ring
      resolves the key, succeeds. *)
  Theorem bib_complete kind kg protected unprot b sec sec' source s addl au targets a :
    bib_premises kind kg protected unprot sec sec' source s addl au ->
    scope_of_cbor (scope_map s) = Some s ->
    find_block b (cb_num sec) = None ->
    apply_bib_asb kind kg protected unprot b sec source s addl au targets = Some a ->
    verify_bib_asb (insert_block b sec') sec' a = true.
  Proof.
    intros P Hsc Hfresh Happ. unfold BpSec.apply_bib_asb in Happ.
    destruct (all_some _) as [rss|] eqn:E; [|discriminate]. injection Happ as <-.
    destruct (bib_targets_complete _ _ _ _ _ _ _ _ _ _ _ P Hfresh targets rss E) as [V N].
    unfold BpSec.verify_bib_asb. cbn [a_ctxid a_targets a_results a_source].
    rewrite extract_sec_params by exact Hsc.
    unfold check_secblk. cbn [a_params a_results]. rewrite nodupb_sec_params, N.
    cbn [cose_ctx_id N.eqb Pos.eqb andb]. exact V.
  Qed.

  (** Pairing invariant of a BIB the source builds: the target list is the
      list of operations in the order given, there is one result per target,
      and result i is the one computed for target i.  ([verify_targets] pairs
      them the same way, which is why the unaltered block verifies.) *)
  Theorem bib_pairing kind kg protected unprot b sec source s addl au targets a :
    apply_bib_asb kind kg protected unprot b sec source s addl au targets = Some a ->
    a_targets a = targets /\ length (a_results a) = length (a_targets a) /\
    forall i t, nth_error (a_targets a) i = Some t ->
      exists rs, nth_error (a_results a) i = Some rs /\
                 apply_bib_target kind kg protected unprot b sec source s addl t = Some rs.
  Proof.
    unfold BpSec.apply_bib_asb. destruct (all_some _) as [rss|] eqn:E; [|discriminate].
    intros H. injection H as <-. cbn [a_targets a_results].
    destruct (all_some_map_nth _ _ _ E) as [L N]. repeat split; assumption.
  Qed.

  (** the same on the octets of the security block, when they decode *)
  Corollary bib_complete_wire kind kg protected unprot b num source s addl au targets a :
    let sec := mkCB bib_type num 0 0 [] in
    let sec' := mkCB bib_type num 0 0 (asb_enc a) in
    auth_kind kind ->
    keys_resolve kind kg protected unprot source (mkSP addl au s) ->
    results_decodable kind kg protected unprot ->
    (forall x, okbytes (mac (content_key key kg) x)) ->
    scope_of_cbor (scope_map s) = Some s ->
    (forall f, In (CNint 1, f) s -> flag_btsd f = false) ->
    ~ In (CUint num) (map fst s) ->
    find_block b num = None ->
    apply_bib_asb kind kg protected unprot b sec source s addl au targets = Some a ->
    asb_dec (asb_enc a) = Some a ->
    apply_bib kind kg protected unprot b num source s addl au targets = Some (insert_block b sec') /\
    verify_bib (insert_block b sec') sec' = true.
  Proof.
    intros sec sec' Hk Hkeys Hdec Hmac Hsc Hself Hnum Hfresh Happ Hrt. split.
    - unfold BpSec.apply_bib. fold sec. rewrite Happ. reflexivity.
    - unfold BpSec.verify_bib. cbn [cb_btsd sec']. rewrite Hrt.
      apply (bib_complete kind kg protected unprot b sec sec' source s addl au targets a); try assumption.
      constructor; assumption || reflexivity.
  Qed.

  Lemma verify_bib_msg_true b sec tgt source sp kind m :
    verify_bib_msg b sec tgt source sp kind m = true ->
    auth_kind kind /\
    exists mi k, mac_input (mkOp kind (c_protected m) b sec source (sp_scope sp) (sp_addl sp) tgt) = Some mi /\
                 In k (resolve_content_key kind m source sp) /\ mac_ok k mi (c_tag m) = true.
  Proof.
    unfold BpSec.verify_bib_msg, auth_kind. intros H.
    destruct kind; try discriminate;
      (split; [auto|]);
      destruct (mac_input _) as [mi|]; try discriminate;
      apply existsb_exists in H as [k [Hin Hok]]; exists mi, k; auto.
  Qed.

  (** If the tag the source computed over [o] under key [k] is accepted by the
      verifier for its own view [o'] of the (possibly altered) bundle, then
      the covered content is unchanged and the verifier resolved the same key. *)
  Theorem bib_sound k o mi tag b' sec' tgt' source' sp' kind' m' :
    let o' := mkOp kind' (c_protected m') b' sec' source' (sp_scope sp') (sp_addl sp') tgt' in
    wf_op o -> wf_op o' ->
    mac_input o = Some mi -> mac_ok k mi tag = true ->
    c_tag m' = tag ->
    verify_bib_msg b' sec' tgt' source' sp' kind' m' = true ->
    covered o' = covered o /\ In k (resolve_content_key kind' m' source' sp').
  Proof.
    intros o' W W' Hmi Hok Htag Hv.
    apply verify_bib_msg_true in Hv as [_ (mi' & k' & Hmi' & Hin & Hok')].
    rewrite Htag in Hok'. destruct (mac_inj k k' mi mi' tag Hok Hok') as [-> ->].
    split; [|exact Hin].
    apply mac_input_binding; [exact W'|exact W|]. fold o' in Hmi'. congruence.
  Qed.

  (** Contrapositive forms: any alteration of covered content, and a wrong key,
      make verification fail.  (An altered tag is not among them: that at most
      one tag verifies for a key and an input is a property of the primitive,
      not of the structure.) *)
  Corollary bib_altered_fails k o mi tag b' sec' tgt' source' sp' kind' m' :
    let o' := mkOp kind' (c_protected m') b' sec' source' (sp_scope sp') (sp_addl sp') tgt' in
    wf_op o -> wf_op o' ->
    mac_input o = Some mi -> mac_ok k mi tag = true -> c_tag m' = tag ->
    covered o' <> covered o \/ ~ In k (resolve_content_key kind' m' source' sp') ->
    verify_bib_msg b' sec' tgt' source' sp' kind' m' = false.
  Proof.
    intros o' W W' Hmi Hok Htag Hne.
    destruct (verify_bib_msg b' sec' tgt' source' sp' kind' m') eqn:V; [|reflexivity].
    destruct (bib_sound k o mi tag b' sec' tgt' source' sp' kind' m' W W' Hmi Hok Htag V) as [A B].
    destruct Hne as [Hne|Hne]; contradiction.
  Qed.

  (** Verification outcome is a function of the covered content, the message
      and the key ring only. *)
  Theorem verify_bib_msg_covered b sec tgt b' sec' tgt' source sp kind m :
    covered (mkOp kind (c_protected m) b' sec' source (sp_scope sp) (sp_addl sp) tgt') =
    covered (mkOp kind (c_protected m) b sec source (sp_scope sp) (sp_addl sp) tgt) ->
    verify_bib_msg b' sec' tgt' source sp kind m = verify_bib_msg b sec tgt source sp kind m.
  Proof.
    intros H. unfold BpSec.verify_bib_msg. rewrite !mac_input_covered, H. reflexivity.
  Qed.

  Lemma verify_targets_nth vf b : forall ts rss i t,
    verify_targets vf b ts rss = true -> nth_error ts i = Some t ->
    exists tgt rs, find_block b t = Some tgt /\ nth_error rss i = Some rs /\ vf tgt rs = true.
  Proof.
    induction ts as [|t0 ts IH]; intros rss i t H Hn; [destruct i; discriminate|].
    cbn [verify_targets] in H. destruct (find_block b t0) as [tgt|] eqn:F; [|discriminate].
    destruct rss as [|rs rss]; [discriminate|]. apply andb_true_iff in H as [H1 H2].
    destruct i as [|i]; cbn [nth_error] in *.
    - injection Hn as <-. exists tgt, rs. auto.
    - apply (IH rss i t H2 Hn).
  Qed.

  (** A verified block has every target verified, against the one result at the target's index. *)
  Theorem bib_block_sound b sec a i t :
    verify_bib_asb b sec a = true -> nth_error (a_targets a) i = Some t ->
    exists sp tgt code v kind m,
      extract_secblk a = Some sp /\ find_block b t = Some tgt /\
      nth_error (a_results a) i = Some [(code, v)] /\ cose_of_result code v = Some (kind, m) /\
      verify_bib_msg b sec tgt (a_source a) sp kind m = true.
  Proof.
    unfold BpSec.verify_bib_asb. intros H Hn.
    apply andb_true_iff in H as [_ H]. destruct (extract_secblk a) as [sp|]; [|discriminate].
    destruct (verify_targets_nth _ _ _ _ _ _ H Hn) as (tgt & rs & F & R & V).
    unfold BpSec.verify_bib_result in V.
    destruct rs as [|[code v] [|]]; try discriminate.
    destruct (cose_of_result code v) as [[kind m]|] eqn:C; [|discriminate].
    exists sp, tgt, code, v, kind, m. auto.
  Qed.

  Definition no_btsd_in_scope (s : scope) (t : N) : Prop :=
    forall k f, In (k, f) s -> k = CNint 0 \/ k = CNint 1 \/ k = CUint t -> flag_btsd f = false.

  (** AAD agreement for a confidentiality operation: the verifier sees the
      target with its BTSD replaced by the ciphertext. *)
  Lemma enc_input_agreement kind protected b sec sec' source s addl t tgt ct :
    meta_items sec' = meta_items sec ->
    find_block b t = Some tgt ->
    no_btsd_in_scope s t ->
    ~ In (CUint (cb_num sec)) (map fst s) ->
    cb_num sec <> t ->
    let tgt' := mkCB (cb_type tgt) (cb_num tgt) (cb_flags tgt) (cb_crct tgt) ct in
    enc_input (mkOp kind protected (insert_block (replace_btsd b t ct) sec') sec' source s addl tgt') =
    enc_input (mkOp kind protected b sec source s addl tgt).
  Proof.
    intros Hsec Hf Hno Hnum Hne tgt'. unfold enc_input, op_aad.
    cbn [op_bundle op_sec op_tgt op_source op_scope op_addl op_kind op_protected].
    rewrite (aad_congr b sec tgt _ sec' tgt'); [reflexivity|].
    intros k f Hin. apply scope_entry_congr; try assumption; try reflexivity.
    - intros ->. left. apply (Hno _ f Hin). left; reflexivity.
    - intros ->. left. apply (Hno _ f Hin). right; left; reflexivity.
    - intros p ->. rewrite find_block_insert by exact (scope_key_not_sec s sec sec' p f Hsec Hnum Hin).
      destruct (N.eq_dec (N.pos p) t) as [E|E]; [|rewrite find_block_replace_other by exact E; reflexivity].
      rewrite E, (find_block_replace_same b t ct tgt Hf), Hf. cbn [option_map]. f_equal.
      apply block_items_same; [reflexivity|]. left.
      apply (Hno _ f Hin). right; right. rewrite E. reflexivity.
  Qed.

  (** What [apply_bcb] puts on the wire as the target's BTSD is the AEAD
      output, never the stored plaintext (stated for a block with one target). *)
  Theorem bcb_wire_is_ciphertext kind kg protected unprot b num source s addl au t iv b' tgt :
    let sec := mkCB bcb_type num 1 0 [] in
    apply_bcb kind kg protected unprot b num source s addl au [(t, iv)] = Some b' ->
    find_block b t = Some tgt -> num <> t ->
    exists ei,
      enc_input (mkOp kind protected b sec source s addl tgt) = Some ei /\
      option_map cb_btsd (find_block b' t) = Some (enc (content_key key kg) iv ei (cb_btsd tgt)).
  Proof.
    intros sec H Hf Hne. unfold BpSec.apply_bcb in H. fold sec in H.
    cbn [apply_bcb_targets] in H. unfold BpSec.apply_bcb_target in H. rewrite Hf in H.
    destruct (enc_input (mkOp kind protected b sec source s addl tgt)) as [ei|]; [|discriminate].
    injection H as <-. exists ei. split; [reflexivity|].
    rewrite find_block_insert by (cbn [cb_num]; exact Hne).
    rewrite (find_block_replace_same b t _ tgt Hf). reflexivity.
  Qed.

  Definition enc_results_decodable (kind : ckind) (kg : keying key) (protected : bytes) (unprot : list (cbor * cbor)) : Prop :=
    wf (cose_item kind (mkCose protected unprot [] (recips_of key wrap kg))) /\
    (depth (cose_item kind (mkCose protected unprot [] (recips_of key wrap kg))) <= cose_fuel)%nat.

  Lemma results_decodable_enc kind kg protected unprot :
    results_decodable kind kg protected unprot -> enc_results_decodable kind kg protected unprot.
  Proof. intros H. apply H, wfb_spec. reflexivity. Qed.

  (** The acceptor recovers exactly the original plaintext (any plaintext,
      the empty one included). *)
  Theorem bcb_roundtrip kind kg protected unprot b num source s addl au t iv tgt rs ct sec' :
    let sec := mkCB bcb_type num 1 0 [] in
    let uh := (CUint 5, CBstr iv) :: unprot in
    let b' := insert_block (replace_btsd b t ct) sec' in
    let a := mkASB [t] cose_ctx_id 1 source (sec_params s addl au) [rs] in
    enc_kind kind ->
    keys_resolve kind kg protected uh source (mkSP addl au s) ->
    enc_results_decodable kind kg protected uh ->
    scope_of_cbor (scope_map s) = Some s ->
    no_btsd_in_scope s t ->
    ~ In (CUint num) (map fst s) ->
    num <> t ->
    meta_items sec' = meta_items sec ->
    find_block b t = Some tgt ->
    apply_bcb_target kind kg protected unprot iv b sec source s addl t = Some (rs, ct) ->
    exists b'',
      verify_bcb_asb true b' sec' a = (true, b'') /\
      option_map cb_btsd (find_block b'' t) = Some (cb_btsd tgt) /\
      option_map cb_btsd (find_block b' t) = Some ct.
  Proof.
    intros sec uh b' a Hk Hkeys [W D] Hsc Hno Hnum Hne Hsec Hf Happ.
    unfold BpSec.apply_bcb_target in Happ. rewrite Hf in Happ.
    destruct (enc_input (mkOp kind protected b sec source s addl tgt)) as [ei|] eqn:Eei; [|discriminate].
    injection Happ as <- <-. subst a b'.
    set (ct := enc (content_key key kg) iv ei (cb_btsd tgt)).
    set (tgt' := mkCB (cb_type tgt) (cb_num tgt) (cb_flags tgt) (cb_crct tgt) ct).
    assert (Hne' : cb_num sec' <> t) by (injection Hsec as _ Hn _; cbn [cb_num] in Hn; congruence).
    assert (Hf' : find_block (insert_block (replace_btsd b t ct) sec') t = Some tgt').
    { rewrite find_block_insert by exact Hne'. apply find_block_replace_same, Hf. }
    exists (replace_btsd (insert_block (replace_btsd b t ct) sec') t (cb_btsd tgt)).
    split; [|split].
    - unfold BpSec.verify_bcb_asb. cbn [a_ctxid a_targets a_results a_source].
      unfold check_secblk. cbn [a_params a_results].
      rewrite nodupb_sec_params. cbn [forallb map fst nodupb existsb negb andb cose_ctx_id N.eqb Pos.eqb].
      rewrite extract_sec_params by exact Hsc.
      cbn [decrypt_targets]. rewrite Hf'.
      unfold BpSec.decrypt_result.
      rewrite cose_of_result_value; [|exact W|exact D|eapply shape_ok; [eassumption|right; reflexivity]].
      unfold BpSec.decrypt_msg. cbn [c_protected sp_scope sp_addl].
      unfold tgt'. rewrite (enc_input_agreement kind protected b sec sec' source s addl t tgt ct Hsec Hf Hno Hnum Hne), Eei.
      unfold msg_iv, lookup_hdr. cbn [c_unprot uh find fst snd].
      replace (cbor_key_eqb (CUint 5) (CUint 5)) with true by reflexivity. cbn [option_map snd].
      rewrite (resolve_ok kind kg protected uh source _ _ Hkeys). cbn [first_some cb_btsd].
      unfold ct. rewrite dec_enc. destruct Hk as [->| ->]; reflexivity.
    - rewrite (find_block_replace_same _ t _ tgt' Hf'). reflexivity.
    - rewrite Hf'. reflexivity.
  Qed.

  Lemma first_some_In {A B} (f : A -> option B) l y : first_some f l = Some y -> exists x, In x l /\ f x = Some y.
  Proof.
    induction l as [|x l IH]; cbn [first_some]; [discriminate|].
    destruct (f x) as [z|] eqn:E.
    - intros H. injection H as <-. exists x. split; [left; reflexivity|exact E].
    - intros H. destruct (IH H) as (x' & Hin & Hx). exists x'. split; [right; exact Hin|exact Hx].
  Qed.

  Lemma decrypt_msg_some b sec tgt source sp kind m pt :
    decrypt_msg b sec tgt source sp kind m = Some pt ->
    exists ei iv k, enc_input (mkOp kind (c_protected m) b sec source (sp_scope sp) (sp_addl sp) tgt) = Some ei /\
                    msg_iv m = Some iv /\ In k (resolve_content_key kind m source sp) /\
                    dec k iv ei (cb_btsd tgt) = Some pt.
  Proof.
    unfold BpSec.decrypt_msg. intros H.
    destruct kind; try discriminate;
      destruct (enc_input _) as [ei|]; try discriminate; destruct (msg_iv m) as [iv|]; try discriminate;
      apply first_some_In in H as (k & Hin & Hdec); exists ei, iv, k; auto.
  Qed.

  (** Soundness (idealised AEAD): if the acceptor's decryption of the BTSD it
      received succeeds, and the ciphertext the source produced for [o] is
      the one received, then authenticated context, IV, key and plaintext are
      the source's.  (The second disjunct of the premise on [cb_btsd tgt'] is
      refuted by [aead_auth] and the successful decryption: the theorem is the
      first disjunct's.) *)
  Theorem bcb_sound k iv o ei pt b' sec' tgt' source' sp' kind' m' pt' :
    let o' := mkOp kind' (c_protected m') b' sec' source' (sp_scope sp') (sp_addl sp') tgt' in
    wf_op_ctx o -> wf_op_ctx o' ->
    enc_input o = Some ei ->
    decrypt_msg b' sec' tgt' source' sp' kind' m' = Some pt' ->
    (cb_btsd tgt' = enc k iv ei pt \/ forall k2 iv2 ei2 pt2, cb_btsd tgt' = enc k2 iv2 ei2 pt2 -> False) ->
    cb_btsd tgt' = enc k iv ei pt /\
    covered_ctx o' = covered_ctx o /\ msg_iv m' = Some iv /\
    In k (resolve_content_key kind' m' source' sp') /\ pt' = pt.
  Proof.
    intros o' W W' Hei Hd Hct.
    apply decrypt_msg_some in Hd as (ei' & iv' & k' & Hei' & Hiv' & Hin & Hdec). fold o' in Hei'.
    apply aead_auth in Hdec.
    destruct Hct as [Hct|Hct]; [|exfalso; eapply Hct; exact Hdec].
    rewrite Hct in Hdec. apply enc_inj in Hdec as (-> & -> & -> & ->).
    split; [exact Hct|]. split; [|auto].
    apply enc_input_binding; [exact W'|exact W|congruence].
  Qed.

  (** A block with a single target whose decryption fails: the result is
      failure and the bundle is returned unchanged - the target's BTSD is still
      the octets received.  (With more targets [decrypt_targets] goes on to the
      later ones; nothing is stated about that case.) *)
  Theorem bcb_no_release_on_failure accept b sec a t rs tgt sp :
    a_targets a = [t] -> a_results a = [rs] ->
    extract_secblk a = Some sp ->
    find_block b t = Some tgt ->
    decrypt_result b sec tgt (a_source a) sp rs = None ->
    verify_bcb_asb accept b sec a = (false, b).
  Proof.
    intros Ht Hr He Hf Hd. unfold BpSec.verify_bcb_asb.
    destruct ((a_ctxid a =? cose_ctx_id) && check_secblk a); [|reflexivity].
    rewrite He, Ht, Hr. cbn [decrypt_targets]. rewrite Hf, Hd. reflexivity.
  Qed.

  (** Without [accept] nothing is ever replaced, whatever the targets' results. *)
  Lemma decrypt_targets_no_accept b sec source sp : forall ts rss,
    snd (decrypt_targets key dec unwrap keyring false b sec source sp ts rss) = b.
  Proof.
    induction ts as [|t ts IH]; intros rss; cbn [decrypt_targets]; [reflexivity|].
    destruct (find_block b t); [|reflexivity]. destruct rss as [|rs rss]; [reflexivity|].
    destruct (decrypt_result b sec c source sp rs); [apply IH|]. cbn [snd]. apply IH.
  Qed.
End CryptoProofs.

(** Non-vacuity: concrete primitives satisfying the hypotheses, and a
    concrete bundle run through [apply] / [verify] *)

Module Ex.
  (** keys are numbers; the key ring resolves the one-octet KID (label 4) *)
  Definition keyring (v : cbor) : option N :=
    match v with
    | CArr [CBstr _; CMap u; _; _; _] =>
        match lookup_hdr u 4 with Some (CBstr [k]) => Some k | _ => None end
    | _ => None
    end.
  Definition wrap (kek cek : N) : bytes := [kek; cek].
  Definition unwrap (kek : N) (w : bytes) : option N :=
    match w with [a; c] => if a =? kek then Some c else None | _ => None end.

  (** (S) idealised, injective authenticator: the tag is the key and the message *)
  Definition macS (k : N) (m : bytes) : bytes := k :: m.
  Definition macS_ok (k : N) (m t : bytes) : bool := bytes_eqb t (k :: m).
  (** (C) short tag (correct but not injective), for the completeness example *)
  Definition macC (k : N) (m : bytes) : bytes := [(k + N.of_nat (length m)) mod 256].
  Definition macC_ok (k : N) (m t : bytes) : bool := bytes_eqb t (macC k m).

  (** idealised AEAD: the ciphertext spells out key, IV, associated data, plaintext *)
  Definition pack (k : N) (iv a : bytes) : bytes := k :: N.of_nat (length iv) :: iv ++ N.of_nat (length a) :: a.
  Definition enc (k : N) (iv a p : bytes) : bytes := pack k iv a ++ p.
  Definition dec (k : N) (iv a c : bytes) : option bytes :=
    if bytes_eqb (firstn (length (pack k iv a)) c) (pack k iv a) then Some (skipn (length (pack k iv a)) c) else None.

  Lemma unwrap_wrap kek cek : unwrap kek (wrap kek cek) = Some cek.
  Proof. unfold unwrap, wrap. rewrite N.eqb_refl. reflexivity. Qed.

  Lemma macS_ok_mac k m : macS_ok k m (macS k m) = true.
  Proof. apply bytes_eqb_refl. Qed.

  Lemma macS_inj k k' x y t : macS_ok k x t = true -> macS_ok k' y t = true -> k = k' /\ x = y.
  Proof.
    unfold macS_ok. intros H H'. apply bytes_eqb_eq in H, H'. subst t. injection H' as -> ->. split; reflexivity.
  Qed.

  Lemma macC_ok_mac k m : macC_ok k m (macC k m) = true.
  Proof. apply bytes_eqb_refl. Qed.

  Lemma macC_okbytes k m : okbytes (macC k m).
  Proof. unfold okbytes, macC. cbn [wf length]. split; [lia|]. constructor; [unfold wf_byte; lia|constructor]. Qed.

  Lemma dec_enc k iv a p : dec k iv a (enc k iv a p) = Some p.
  Proof.
    unfold dec, enc. rewrite firstn_len_app, bytes_eqb_refl, skipn_len_app. reflexivity.
  Qed.

  Lemma aead_auth k iv a c p : dec k iv a c = Some p -> c = enc k iv a p.
  Proof.
    unfold dec, enc. destruct (bytes_eqb _ _) eqn:E; [|discriminate]. intros H. injection H as <-.
    apply bytes_eqb_eq in E. rewrite <- E at 1. symmetry. apply firstn_skipn.
  Qed.

  Lemma enc_inj k iv a p k' iv' a' p' : enc k iv a p = enc k' iv' a' p' -> k = k' /\ iv = iv' /\ a = a' /\ p = p'.
  Proof.
    unfold enc, pack. cbn [app]. intros H. injection H as -> Hl H.
    apply Nat2N.inj in Hl. rewrite <- !app_assoc in H. apply app_inj_len in H as [-> H]; [|exact Hl].
    cbn [app] in H. injection H as Hl' H. apply Nat2N.inj in Hl'.
    apply app_inj_len in H as [-> ->]; [|exact Hl']. repeat split.
  Qed.

  (** a small bundle: primary block (CRC-16), a type-7 block number 2, the payload *)
  Definition eid (s : bytes) : cbor := CArr [CUint 1; CTstr s].
  Definition pri : list cbor :=
    [CUint 7; CUint 0; CUint 1; eid [47;47;98;47;115]; eid [47;47;97;47]; eid [47;47;97;47];
     CArr [CUint 1000; CUint 0]; CUint 3600000].
  Definition b0 : bundle := mkB pri [mkCB 7 2 0 1 [5]; mkCB 1 1 0 2 [104; 105]].
  Definition src : cbor := eid [47;47;97;47].
  Definition sc : scope := [(CUint 0, 1); (CNint 0, 1)].
  Definition prot : bytes := [161; 1; 5].
  Definition uh : list (cbor * cbor) := [(CUint 4, CBstr [9])].

  (** integrity, direct key 9, COSE_Mac0 *)
  Definition b1C := apply_bib N macC wrap KMac0 (Direct N 9) prot uh b0 3 src sc [] None [1].
  Definition bibC : option cblock := match b1C with Some b => find_block b 3 | None => None end.

  Example complete_run :
    match b1C, bibC with
    | Some b, Some sec => verify_bib N macC_ok unwrap keyring b sec = true
    | _, _ => False
    end.
  Proof. vm_compute. reflexivity. Qed.

  (** the premises of the completeness theorem hold for this run *)
  Example complete_premises :
    auth_kind KMac0 /\
    keys_resolve N keyring KMac0 (Direct N 9) prot uh src (mkSP [] None sc) /\
    results_decodable N wrap KMac0 (Direct N 9) prot uh /\
    (forall x, okbytes (macC 9 x)) /\
    scope_of_cbor (scope_map sc) = Some sc /\
    (forall f, In (CNint 1, f) sc -> flag_btsd f = false) /\
    ~ In (CUint 3) (map fst sc) /\ find_block b0 3 = None /\
    exists a, apply_bib_asb N macC wrap KMac0 (Direct N 9) prot uh b0 (mkCB bib_type 3 0 0 []) src sc [] None [1] = Some a
              /\ asb_dec (asb_enc a) = Some a.
  Proof.
    split; [left; reflexivity|]. split; [split; [left; reflexivity|reflexivity]|].
    split.
    { intros tag Ht. split; [|cbn; unfold cose_fuel; lia].
      apply wf_CArr. split; [cbn; lia|].
      repeat (apply Forall_cons); try apply Forall_nil; try exact Ht.
      - apply wfb_spec. reflexivity.
      - apply wfb_spec. reflexivity.
      - cbn. lia. }
    split; [apply macC_okbytes|]. split; [reflexivity|].
    split; [intros f [H|[H|[]]]; discriminate|].
    split; [intros [H|[H|[]]]; discriminate|]. split; [reflexivity|].
    eexists. split; [vm_compute; reflexivity|vm_compute; reflexivity].
  Qed.

  (** soundness instance: an altered payload, an altered primary block and
      a wrong key fail; an altered block outside the scope still verifies *)
  Definition b1S := apply_bib N macS wrap KMac0 (Direct N 9) prot uh b0 3 src sc [] None [1].
  Definition vS (alter : bundle -> bundle) (kr : cbor -> option N) : option bool :=
    match b1S with
    | Some b => match find_block b 3 with
                | Some sec => Some (verify_bib N macS_ok unwrap kr (alter b) sec)
                | None => None
                end
    | None => None
    end.
  Definition alter_payload (b : bundle) := replace_btsd b 1 [104; 106].
  Definition alter_other (b : bundle) := replace_btsd b 2 [6].
  Definition alter_primary (b : bundle) := mkB (CUint 7 :: CUint 4 :: tl (tl (b_pri b))) (b_blocks b).
  Definition keyring_wrong (v : cbor) : option N := option_map (N.add 1) (keyring v).

  Example sound_run :
    vS (fun b => b) keyring = Some true /\ vS alter_payload keyring = Some false /\
    vS alter_primary keyring = Some false /\ vS alter_other keyring = Some true /\
    vS (fun b => b) keyring_wrong = Some false.
  Proof. vm_compute. repeat split. Qed.

  Example wf_op_run :
    match find_block b0 1 with
    | Some tgt => wf_op (mkOp KMac0 prot b0 (mkCB bib_type 3 0 0 []) src sc [] tgt) /\
                  covered (mkOp KMac0 prot b0 (mkCB bib_type 3 0 0 []) src sc [] tgt) <> None
    | None => False
    end.
  Proof.
    cbn [find_block b0 b_blocks find cb_num N.eqb Pos.eqb]. split; [|vm_compute; discriminate].
    apply wf_opb_ok. vm_compute. reflexivity.
  Qed.

  (** confidentiality, direct key 9, COSE_Encrypt0, including the empty plaintext *)
  Definition protE : bytes := [161; 1; 1].
  Definition b0e : bundle := mkB pri [mkCB 7 2 0 1 [5]; mkCB 1 1 0 2 []].
  Definition runE (b : bundle) (kr : cbor -> option N) (alter : bundle -> bundle) : option (bool * option bytes * option bytes) :=
    match apply_bcb N enc wrap KEnc0 (Direct N 9) protE uh b 4 src sc [] None [(1, [1; 2; 3])] with
    | Some b' =>
        match find_block b' 4 with
        | Some sec =>
            let r := verify_bcb N dec unwrap kr true (alter b') sec in
            Some (fst r, option_map cb_btsd (find_block b' 1), option_map cb_btsd (find_block (snd r) 1))
        | None => None
        end
    | None => None
    end.

  Example roundtrip_run :
    (exists ct, runE b0 keyring (fun b => b) = Some (true, Some ct, Some [104; 105]) /\ ct <> [104; 105]) /\
    (exists ct, runE b0e keyring (fun b => b) = Some (true, Some ct, Some [])) /\
    (exists ct, runE b0 keyring_wrong (fun b => b) = Some (false, Some ct, Some ct)) /\
    (exists ct, runE b0 keyring alter_primary = Some (false, Some ct, Some ct)).
  Proof.
    split; [|split; [|split]]; eexists.
    - split; [vm_compute; reflexivity|vm_compute; discriminate].
    - vm_compute. reflexivity.
    - vm_compute. reflexivity.
    - vm_compute. reflexivity.
  Qed.
End Ex.

(** The wire -> field step is not injective (finding)

    [mac_input_binding] is about decoded fields.  The decoder keeps EIDs as
    URI strings and re-encodes them through [urlsplit] ([eid_norm]), so two
    different encoded bundles can carry the same decoded content: the
    verifier authenticates exactly the same input for both.  Witnesses: a
    bundle the real agent produced (COSE_Mac0 / HMAC-256 BIB, scope
    {0:1,-1:1}); the same bundle with "?q=1" appended to the destination EID
    of the primary block (CRC value left as it was); the same bundle with one
    bit of the security source flipped ("//src/" -> "//src?").  The real
    receive path delivers both altered bundles as verified.

    The wires are kept as evaluated octet lists, since every statement below
    computes on each of them several times. *)
Definition primary_witness (orig alt : bytes) : Prop :=
  wire_primary_raw orig <> wire_primary_raw alt /\ wire_primary_raw alt <> None /\ verdict orig alt = 1.

Definition source_witness (orig alt : bytes) : Prop :=
  wire_sources_raw orig <> wire_sources_raw alt /\ wire_sources_raw alt <> None /\
  length orig = length alt /\ verdict orig alt = 1.

Module Wit.
  Definition orig : bytes := Eval vm_compute in (unhex 148 0x9f890700018201692f2f6473742f7376638201662f2f7372632f820100821b000000ba43b74000001a0036ee8042a6b2850b020000584e810103018201662f2f7372632f818205a2000120018181821158338443a10105a104486b2d6d6163323536f65820ba03965c5ded6c48aad4b8cdf224f7caa4074928f79307f15d17817f85cf972b86010100014568656c6c6f424bf3ff).
  Definition alt_primary : bytes := Eval vm_compute in (unhex 152 0x9f8907000182016d2f2f6473742f7376633f713d318201662f2f7372632f820100821b000000ba43b74000001a0036ee8042a6b2850b020000584e810103018201662f2f7372632f818205a2000120018181821158338443a10105a104486b2d6d6163323536f65820ba03965c5ded6c48aad4b8cdf224f7caa4074928f79307f15d17817f85cf972b86010100014568656c6c6f424bf3ff).
  Definition alt_source : bytes := Eval vm_compute in (unhex 148 0x9f890700018201692f2f6473742f7376638201662f2f7372632f820100821b000000ba43b74000001a0036ee8042a6b2850b020000584e810103018201662f2f7372633f818205a2000120018181821158338443a10105a104486b2d6d6163323536f65820ba03965c5ded6c48aad4b8cdf224f7caa4074928f79307f15d17817f85cf972b86010100014568656c6c6f424bf3ff).

  Lemma primary_refuted : primary_witness orig alt_primary.
  Proof. vm_compute. repeat split; discriminate. Qed.

  Lemma source_refuted : source_witness orig alt_source.
  Proof. vm_compute. repeat split; discriminate. Qed.
End Wit.

(** The same for a confidentiality block the real agent produced
    (COSE_Encrypt0 / A128GCM, scope {0:1,-1:1}): altered destination EID
    (CRC value left as it was), resp. one bit of the security source flipped;
    the acceptor computes the same Enc_structure and releases the plaintext. *)
Module WitE.
  Definition orig : bytes := Eval vm_compute in (unhex 144 0x9f890700018201692f2f6473742f7376638201662f2f7372632f820100821b000000ba43b74000001a0036ee8042a6b2850c020100583a810103018201662f2f7372632f818205a20001200181818210581f8343a10101a204486b2d67636d313238054c5477656c7665313231323132f6860101000155372c8a2b9de10126a5a175e165952c587b64ff56a042d8e0ff).
  Definition alt_primary : bytes := Eval vm_compute in (unhex 148 0x9f8907000182016d2f2f6473742f7376633f713d318201662f2f7372632f820100821b000000ba43b74000001a0036ee8042a6b2850c020100583a810103018201662f2f7372632f818205a20001200181818210581f8343a10101a204486b2d67636d313238054c5477656c7665313231323132f6860101000155372c8a2b9de10126a5a175e165952c587b64ff56a042d8e0ff).
  Definition alt_source : bytes := Eval vm_compute in (unhex 144 0x9f890700018201692f2f6473742f7376638201662f2f7372632f820100821b000000ba43b74000001a0036ee8042a6b2850c020100583a810103018201662f2f7372633f818205a20001200181818210581f8343a10101a204486b2d67636d313238054c5477656c7665313231323132f6860101000155372c8a2b9de10126a5a175e165952c587b64ff56a042d8e0ff).

  Lemma primary_refuted : primary_witness orig alt_primary.
  Proof. vm_compute. repeat split; discriminate. Qed.

  Lemma source_refuted : source_witness orig alt_source.
  Proof. vm_compute. repeat split; discriminate. Qed.
End WitE.
