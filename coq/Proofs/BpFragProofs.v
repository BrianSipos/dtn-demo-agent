(** Proofs about the fragmentation model of Model/BpFrag.v (property C05).
    Everything that depends on the arithmetic of [Fragment._create] is proved
    over the definitions of Gen/FragBudget.v, i.e. against what the source says
    now.  Three steps carry the file: [tx_length] (what is handed over has the
    size the budget computes), [frag_loop_facts] (one induction on the fuel gives
    tiling, offsets, count and the per-fragment bound of the loop's result), and
    [send_request_tx] (a send request is [map tx] of a list of bundles, so its
    sizes are arithmetic). *)
From Coq Require Import List ZArith Bool Lia.
From DTN Require Import Lib.Bytes Lib.Cbor Lib.CborProofs Lib.Crc Model.Bundle Gen.FragBudget Model.BpFrag.
Import ListNotations.
Local Open Scope Z_scope.

(* [lia] with case analysis on Boolean subterms (ZifyBool's own hook; Lib.Bytes, required above, sets the div/mod one
   instead): [gen_should] and [gen_keep] need it.  The setting reaches only what requires this file (Props/C05.v); Proofs/BpReasmProofs.v
   does not, and is under that of Lib/IvlProofs.v. *)
Ltac Zify.zify_post_hook ::= ZifyBool.elim_bool_cstr.

(** Interface to Gen/FragBudget.v: the translated decisions and formulas are unfolded only here: each fact is what the
    rest of the development needs to know about the code's arithmetic, proved by [lia]
    (the three constants by evaluation) over whatever the translator emitted, so an equivalent
    rewriting of the source goes through, and a change of meaning fails here or in the lemmas that use these. *)

Lemma gen_should s m o f :
  should_fragment s m o f = true <->
  (s = true /\ m < o /\ flag_set f flag_no_fragment = false /\ flag_set f flag_is_fragment = false).
Proof.
  unfold should_fragment. generalize (flag_set f flag_no_fragment) (flag_set f flag_is_fragment). intros x y. lia.
Qed.

Lemma gen_keep off f n :
  keep_block off f n = ((off =? 0) || flag_set f flag_replicate || is_payload_block n).
Proof. unfold keep_block, is_payload_block. generalize (flag_set f flag_replicate). intros x. lia. Qed.

Lemma gen_loop_test off p : frag_loop_test off p = true <-> off < p.
Proof. unfold frag_loop_test. lia. Qed.

Lemma gen_frag_size m n p : frag_size m n p = m - n + 1 - p.
Proof. unfold frag_size. lia. Qed.

Lemma gen_size_bad fs : frag_size_bad fs = false <-> 0 < fs.
Proof. unfold frag_size_bad. lia. Qed.

Lemma gen_offsets off fs :
  frag_slice_lo off fs = off /\ frag_slice_hi off fs = off + fs /\ frag_next_offset off fs = off + fs.
Proof. unfold frag_slice_lo, frag_slice_hi, frag_next_offset. lia. Qed.

Lemma gen_init : frag_init_offset = 0.
Proof. reflexivity. Qed.

Lemma gen_template_btsd : template_btsd = [].
Proof. reflexivity. Qed.

Lemma gen_flags_nonzero : flag_is_fragment <> 0%N.
Proof. discriminate. Qed.

Lemma arr_small_length l :
  (length l < 24)%nat -> length (encode (CArr l)) = (1 + length (encode_seq l))%nat.
Proof.
  intros H. rewrite encode_arr_length. rewrite head_len_small by lia. reflexivity.
Qed.

Lemma encode_seq_length_app a b : length (encode_seq (a ++ b)) = (length (encode_seq a) + length (encode_seq b))%nat.
Proof. rewrite encode_seq_app, app_length. reflexivity. Qed.

Lemma crc_field_items_length ct z : length (encode_seq (crc_items (crc_field ct z))) = crc_part ct.
Proof.
  unfold crc_field, crc_part.
  destruct (ct =? 1)%N.
  - cbn [crc_items]. rewrite encode_seq_length_cons, encode_seq_nil, encode_bstr_length.
    unfold crc16_x25_field. rewrite be_length. reflexivity.
  - destruct (ct =? 2)%N.
    + cbn [crc_items]. rewrite encode_seq_length_cons, encode_seq_nil, encode_bstr_length.
      unfold crc32c_field. rewrite be_length. reflexivity.
    + reflexivity.
Qed.

Lemma crc_field_items_count ct z : (length (crc_items (crc_field ct z)) <= 1)%nat.
Proof. unfold crc_field. destruct (ct =? 1)%N; [cbn; lia|]. destruct (ct =? 2)%N; cbn; lia. Qed.

Lemma cblock_with_crc_length k : length (encode_cblock (with_crc_block k)) = blk_size k.
Proof.
  unfold encode_cblock, with_crc_block, cblock_items, set_bcrc. cbn [btype bnum bflags bcrc_type btsd bcrc].
  match goal with |- context [crc_field _ ?zz] => set (z := zz) end.   (* the message under the CRC plays no part *)
  pose proof (crc_field_items_count (bcrc_type k) z) as Hc.
  rewrite arr_small_length by (rewrite app_length; cbn [length]; lia).
  rewrite encode_seq_length_app, crc_field_items_length.
  rewrite !encode_seq_length_cons, encode_seq_nil, !encode_uint_length, encode_bstr_length.
  unfold blk_size, olen. cbn [length]. lia.
Qed.

Lemma frag_items_length f : length (encode_seq (frag_items f)) = frag_part f.
Proof.
  destruct f as [[o t]|]; cbn [frag_items frag_part].
  - rewrite !encode_seq_length_cons, encode_seq_nil, !encode_uint_length. cbn [length]. lia.
  - reflexivity.
Qed.

Lemma frag_items_count f : (length (frag_items f) <= 2)%nat.
Proof. destruct f as [[o t]|]; cbn; lia. Qed.

Lemma primary_with_crc_length p : length (encode_primary (with_crc_primary p)) = pri_size p.
Proof.
  unfold encode_primary, with_crc_primary, primary_items, set_crc.
  cbn [version flags crc_type dest src report_to create_time create_seq lifetime frag crc].
  match goal with |- context [crc_field _ ?zz] => set (z := zz) end.   (* the message under the CRC plays no part *)
  pose proof (crc_field_items_count (crc_type p) z) as Hc.
  pose proof (frag_items_count (frag p)) as Hf.
  rewrite arr_small_length by (rewrite !app_length; cbn [length]; lia).
  rewrite !encode_seq_length_app, crc_field_items_length, frag_items_length.
  rewrite !encode_seq_length_cons, encode_seq_nil, !encode_uint_length.
  rewrite (arr_small_length [CUint (create_time p); CUint (create_seq p)]) by (cbn; lia).
  rewrite !encode_seq_length_cons, encode_seq_nil, !encode_uint_length.
  unfold pri_size, eid_size. cbn [length]. lia.
Qed.

Lemma list_sum_cons x l : list_sum (x :: l) = (x + list_sum l)%nat.
Proof. reflexivity. Qed.

Lemma blocks_seq_length l :
  length (encode_seq (map (fun blk => CArr (cblock_items blk)) (map with_crc_block l))) = list_sum (map blk_size l).
Proof.
  induction l as [|k l IH]; [reflexivity|].
  cbn [map]. rewrite list_sum_cons, encode_seq_length_cons, IH.
  fold (encode_cblock (with_crc_block k)). rewrite cblock_with_crc_length. reflexivity.
Qed.

Theorem tx_length b : Z.of_nat (length (tx b)) = tx_size b.
Proof.
  unfold tx, tx_size, encode_bundle, with_crc_bundle, bundle_items. cbn [prim blocks].
  rewrite encode_indef_arr_length, encode_seq_length_cons, blocks_seq_length.
  fold (encode_primary (with_crc_primary (prim b))). rewrite primary_with_crc_length. lia.
Qed.

Lemma flag_set_lor w c : c <> 0%N -> flag_set (N.lor w c) c = true.
Proof.
  intros Hc. unfold flag_set. rewrite N.land_lor_distr_l, N.land_diag.
  destruct (N.eqb_spec (N.lor (N.land w c) c) 0) as [E|E]; [|reflexivity].
  apply N.lor_eq_0_iff in E. tauto.
Qed.

Lemma pyslice_split data (lo hi : Z) :
  0 <= lo <= hi ->
  pyslice data lo hi ++ skipn (Z.to_nat hi) data = skipn (Z.to_nat lo) data.
Proof.
  intros H. unfold pyslice.
  rewrite <- (firstn_skipn (Z.to_nat hi - Z.to_nat lo) (skipn (Z.to_nat lo) data)) at 2.
  rewrite skipn_skipn. do 2 f_equal. lia.
Qed.

Lemma pyslice_length data (lo hi : Z) :
  0 <= lo <= hi ->
  Z.of_nat (length (pyslice data lo hi)) = Z.min (hi - lo) (Z.max 0 (Z.of_nat (length data) - lo)).
Proof.
  intros H. unfold pyslice. rewrite firstn_length, skipn_length. lia.
Qed.

Definition npay (l : list cblock) : nat := length (filter is_pay l).

Lemma one_payload_npay b : one_payload b <-> npay (blocks b) = 1%nat.
Proof. reflexivity. Qed.

Lemma npay_cons k l : npay (k :: l) = ((if is_pay k then 1 else 0) + npay l)%nat.
Proof. unfold npay. cbn [filter]. destruct (is_pay k); reflexivity. Qed.

Lemma is_pay_set_btsd k d : is_pay (set_btsd k d) = is_pay k.
Proof. reflexivity. Qed.

Lemma is_pay_tmpl k : is_pay (tmpl_blk k) = is_pay k.
Proof. unfold tmpl_blk. destruct (is_pay k) eqn:E; [rewrite is_pay_set_btsd|]; exact E. Qed.

Lemma is_pay_fill d k : is_pay (fill_blk d k) = is_pay k.
Proof. unfold fill_blk. destruct (is_pay k) eqn:E; [rewrite is_pay_set_btsd|]; exact E. Qed.

Lemma npay_map_tmpl l : npay (map tmpl_blk l) = npay l.
Proof. induction l as [|k l IH]; [reflexivity|]. cbn [map]. rewrite !npay_cons, is_pay_tmpl, IH. reflexivity. Qed.

Lemma npay_map_fill d l : npay (map (fill_blk d) l) = npay l.
Proof. induction l as [|k l IH]; [reflexivity|]. cbn [map]. rewrite !npay_cons, is_pay_fill, IH. reflexivity. Qed.

Lemma blk_size_set k d :
  Z.of_nat (blk_size (set_btsd k d)) =
  Z.of_nat (blk_size (set_btsd k [])) - 1 + Z.of_nat (head_len (olen d)) + Z.of_nat (length d).
Proof.
  unfold blk_size, set_btsd, olen. cbn [btype bnum bflags bcrc_type btsd length].
  change (head_len (N.of_nat 0)) with 1%nat. lia.
Qed.

Lemma sum_fill d l :
  Z.of_nat (list_sum (map blk_size (map (fill_blk d) (map tmpl_blk l)))) =
  Z.of_nat (list_sum (map blk_size (map tmpl_blk l)))
  + Z.of_nat (npay l) * (Z.of_nat (head_len (olen d)) + Z.of_nat (length d)
                         - Z.of_nat (head_len (olen template_btsd)) - Z.of_nat (length template_btsd)).
Proof.
  induction l as [|k l IH]; [cbn; lia|].
  cbn [map]. rewrite !list_sum_cons, npay_cons. rewrite !Nat2Z.inj_add, IH.
  unfold tmpl_blk at 1 3, fill_blk at 1. destruct (is_pay k) eqn:E.
  - rewrite is_pay_set_btsd, E.
    assert (Hs : set_btsd (set_btsd k template_btsd) d = set_btsd k d) by reflexivity.
    rewrite Hs, (blk_size_set k d), (blk_size_set k template_btsd). lia.
  - rewrite E. lia.
Qed.

Lemma npay_sel off l : npay (sel_blocks off l) = npay l.
Proof.
  induction l as [|k l IH]; [reflexivity|].
  unfold sel_blocks in *. cbn [filter]. rewrite gen_keep. fold (is_pay k).
  destruct (is_pay k) eqn:P.
  - rewrite orb_true_r, !npay_cons, P, IH. reflexivity.
  - destruct (_ || _); rewrite ?npay_cons, P, IH; reflexivity.
Qed.

Lemma find_fill d l : npay l = 1%nat -> option_map btsd (find is_pay (map (fill_blk d) l)) = Some d.
Proof.
  induction l as [|k l IH]; [discriminate|].
  rewrite npay_cons. cbn [map find]. rewrite is_pay_fill. destruct (is_pay k) eqn:E.
  - intros _. unfold fill_blk. rewrite E. reflexivity.
  - intros H. apply IH. exact H.
Qed.

Lemma template_npay b off total : one_payload b -> npay (blocks (template b off total)) = 1%nat.
Proof.
  intros Hone. unfold template. cbn [blocks]. rewrite npay_map_tmpl, npay_sel. apply one_payload_npay, Hone.
Qed.

Lemma fill_template_size b off total d :
  one_payload b ->
  tx_size (fill (template b off total) d) =
  tx_size (template b off total) - 1 + Z.of_nat (head_len (olen d)) + Z.of_nat (length d).
Proof.
  intros Hone. pose proof (sum_fill d (sel_blocks (Z.of_N off) (blocks b))) as H.
  rewrite npay_sel, (proj1 (one_payload_npay b) Hone) in H.
  unfold tx_size, fill, template. cbn [prim blocks].
  rewrite gen_template_btsd in H. unfold olen in *. cbn [length] in H. change (head_len (N.of_nat 0)) with 1%nat in H. lia.
Qed.

(** the fragment of [b] (payload [payload]) that carries [d] at offset [off] *)
Definition fragment_at (b : bundle) (payload : bytes) (off : Z) (d : bytes) : bundle :=
  fill (template b (Z.to_N off) (olen payload)) d.

Lemma fragment_at_data b payload off d : one_payload b -> frag_data (fragment_at b payload off d) = d.
Proof.
  intros Hone. unfold fragment_at, frag_data, payload_of, fill. cbn [blocks].
  rewrite find_fill; [reflexivity|]. apply template_npay, Hone.
Qed.

(** what the loop guarantees of each fragment it returns *)
Definition loop_frag (b : bundle) (mtu : Z) (payload : bytes) (f : bundle) : Prop :=
  exists o d, f = fragment_at b payload o d /\ 0 <= o /\ 1 <= Z.of_nat (length d) /\ tx_size f <= mtu.

Lemma frag_loop_facts b mtu payload : one_payload b -> forall fuel off l,
  0 <= off ->
  frag_loop fuel b mtu payload (pyld_size_enc payload) off = LDone l ->
  concat (map frag_data l) = skipn (Z.to_nat off) payload /\
  offsets_from (Z.to_N off) l /\
  Z.of_nat (length l) <= Z.max 0 (Z.of_nat (length payload) - off) /\
  Forall (loop_frag b mtu payload) l.
Proof.
  intros Hone. induction fuel as [|fuel IH]; intros off l Hoff; [discriminate|].
  cbn [frag_loop].
  destruct (frag_loop_test off _) eqn:Ht.
  2:{ intros E. inversion E; subst l. apply not_true_iff_false in Ht. rewrite gen_loop_test in Ht.
      cbn [map concat offsets_from length]. rewrite skipn_all2 by lia.
      repeat split; [lia|constructor]. }
  set (t := template b (Z.to_N off) (olen payload)).
  set (fs := frag_size mtu (tx_size t) _).
  destruct (frag_size_bad fs) eqn:Hb; [discriminate|].
  destruct (frag_loop fuel b mtu payload _ (frag_next_offset off fs)) as [| |r] eqn:Hr; try discriminate.
  intros E. inversion E; subst l. clear E.
  apply gen_loop_test in Ht. apply gen_size_bad in Hb.
  destruct (gen_offsets off fs) as (-> & -> & Hnext). rewrite Hnext in Hr.
  destruct (IH (off + fs) r ltac:(lia) Hr) as (IHc & IHo & IHl & IHf).
  set (d := pyslice payload off (off + fs)).
  assert (Hlen : Z.of_nat (length d) = Z.min fs (Z.of_nat (length payload) - off)).
  { unfold d. rewrite pyslice_length by lia. lia. }
  change (fill t d) with (fragment_at b payload off d). cbn [map concat offsets_from length].
  rewrite !fragment_at_data by exact Hone.
  split; [|split; [|split]].
  - rewrite IHc. apply pyslice_split. lia.
  - split; [reflexivity|]. destruct r; [exact I|]. cbn [length] in IHl.   (* the last fragment may be shorter than [fs] *)
    replace (Z.to_N off + olen d)%N with (Z.to_N (off + fs)) by (unfold olen; lia). exact IHo.
  - lia.
  - constructor; [|exact IHf]. exists off, d. split; [reflexivity|]. split; [exact Hoff|]. split; [lia|].
    unfold fragment_at. rewrite fill_template_size by exact Hone. fold t.
    (* the budget counts the length header of the whole payload; that of a slice is no longer *)
    assert (Hh : (head_len (olen d) <= head_len (olen payload))%nat) by (apply head_len_mono; unfold olen; lia).
    pose proof (gen_frag_size mtu (tx_size t) (pyld_size_enc payload)) as Hsize. fold fs in Hsize.
    unfold pyld_size_enc in *. lia.
Qed.

(** enough fuel: every round advances by at least one octet *)
Lemma frag_loop_fuel b mtu payload pse fuel : forall off,
  0 <= off -> (Z.to_nat (Z.of_nat (length payload) - off) < fuel)%nat ->
  frag_loop fuel b mtu payload pse off <> LFuel.
Proof.
  induction fuel as [|fuel IH]; intros off Hoff Hf; [lia|].
  cbn [frag_loop].
  destruct (frag_loop_test off (Z.of_nat (length payload))) eqn:Ht; [|discriminate].
  set (fs := frag_size mtu _ pse).
  destruct (frag_size_bad fs) eqn:Hb; [discriminate|].
  apply gen_loop_test in Ht. apply gen_size_bad in Hb.
  destruct (gen_offsets off fs) as (_ & _ & Hnext).
  specialize (IH (frag_next_offset off fs)).
  destruct (frag_loop fuel b mtu payload pse (frag_next_offset off fs)); try discriminate.
  exfalso. apply IH; [|  |reflexivity]; rewrite Hnext; lia.
Qed.

Lemma payload_of_one b : one_payload b -> exists pd, payload_of b = Some pd.
Proof.
  unfold one_payload, payload_of. induction (blocks b) as [|k l IH]; [discriminate|].
  cbn [filter find]. destruct (is_pay k); [intros _; eexists; reflexivity|exact IH].
Qed.

Definition wants_split (b : bundle) (mtu : option N) : bool :=
  should_fragment (match mtu with Some _ => true | None => false end)
                  (match mtu with Some v => Z.of_N v | None => 0 end) (tx_size b) (flags (prim b)).

(** what each answer of the step says about its input; the fuel never runs out *)
Lemma fragment_step_spec b mtu :
  match fragment_step b mtu with
  | Unchanged => wants_split b mtu = false
  | NoPayload => payload_of b = None
  | Nothing => wants_split b mtu = true
  | Frags l => exists pd, payload_of b = Some pd /\
                 frag_loop (S (length pd)) b (match mtu with Some v => Z.of_N v | None => 0 end) pd (pyld_size_enc pd) 0 = LDone l
  | Stuck => False
  end.
Proof.
  unfold fragment_step, wants_split. destruct (should_fragment _ _ _ _); [|reflexivity].
  destruct (payload_of b) as [pd|]; [|reflexivity].
  destruct (non_pyld_too_big _ _); [reflexivity|]. rewrite gen_init.
  destruct (frag_loop _ _ _ _ _ _) eqn:Hl; [|reflexivity|eauto].
  revert Hl. apply frag_loop_fuel; lia.
Qed.

Lemma fragment_step_frags b m l :
  one_payload b ->
  fragment_step b (Some m) = Frags l ->
  exists pd, payload_of b = Some pd /\ concat (map frag_data l) = pd /\ offsets_from 0 l /\
             (length l <= length pd)%nat /\ Forall (loop_frag b (Z.of_N m) pd) l.
Proof.
  intros Hone Hf. pose proof (fragment_step_spec b (Some m)) as S. rewrite Hf in S. destruct S as (pd & Hp & Hl).
  destruct (frag_loop_facts b (Z.of_N m) pd Hone _ 0 l (Z.le_refl 0) Hl) as (A & B & C & D).
  exists pd. repeat split; [exact Hp|exact A|exact B|lia|exact D].
Qed.

Lemma fragment_step_not_stuck b mtu : fragment_step b mtu <> Stuck.
Proof. intros E. pose proof (fragment_step_spec b mtu) as S. rewrite E in S. exact S. Qed.

Lemma fragment_step_unchanged b mtu :
  mtu = None \/ flag_set (flags (prim b)) flag_no_fragment = true \/ flag_set (flags (prim b)) flag_is_fragment = true
  \/ (exists m, mtu = Some m /\ tx_size b <= Z.of_N m) ->
  fragment_step b mtu = Unchanged.
Proof.
  intros H. unfold fragment_step.
  destruct (should_fragment _ _ _ _) eqn:E; [|reflexivity].
  exfalso. apply gen_should in E. destruct E as (E1 & E2 & E3 & E4).
  destruct H as [-> | [H | [H | (m & -> & H)]]]; [discriminate|congruence|congruence|lia].
Qed.

Lemma fragment_step_split b m :
  frag_allowed b -> one_payload b -> Z.of_N m < tx_size b ->
  fragment_step b (Some m) = Nothing \/ exists l, fragment_step b (Some m) = Frags l.
Proof.
  intros [Hnf Hif] Hone Hbig. pose proof (fragment_step_spec b (Some m)) as S.
  destruct (fragment_step b (Some m)) as [| | |l|]; [| |now left|eauto|contradiction].
  - assert (wants_split b (Some m) = true) by (apply gen_should; auto). congruence.
  - destruct (payload_of_one _ Hone). congruence.
Qed.

(** for a closed [r]: the fragment list need not be written out to state something about it *)
Lemma frags_witness r (P : list bundle -> Prop) :
  match r with Frags l => P l | _ => False end -> exists l, r = Frags l /\ P l.
Proof. destruct r; try contradiction. eauto. Qed.

Lemma fragment_at_is_fragment b pd o d :
  flag_set (flags (prim (fragment_at b pd o d))) flag_is_fragment = true.
Proof. cbn. apply flag_set_lor. exact gen_flags_nonzero. Qed.

(** [send_request] hands over the encodings of these bundles *)
Definition reenter_bundle (sec : bundle -> bundle) (mtu : option N) (f : bundle) : list bundle :=
  match fragment_step (sec f) mtu with Unchanged | NoPayload => [sec f] | _ => [] end.

Definition send_bundles (sec : bundle -> bundle) (b : bundle) (mtu : option N) : list bundle :=
  match fragment_step (sec b) mtu with
  | Unchanged | NoPayload => [sec b]
  | Frags l => flat_map (reenter_bundle sec mtu) l
  | _ => []
  end.

Lemma send_request_tx sec b mtu : send_request sec b mtu = map tx (send_bundles sec b mtu).
Proof.
  unfold send_request, send_bundles. destruct (fragment_step (sec b) mtu) as [| | |l|]; try reflexivity.
  rewrite flat_map_concat_map, concat_map, map_map. f_equal. apply map_ext. intros f.
  unfold reenter, reenter_bundle. destruct (fragment_step (sec f) mtu); reflexivity.
Qed.

(** the sizes handed over, without building an octet *)
Lemma send_request_lengths sec b mtu :
  map (@length N) (send_request sec b mtu) = map (fun f => Z.to_nat (tx_size f)) (send_bundles sec b mtu).
Proof. rewrite send_request_tx, map_map. apply map_ext. intros f. rewrite <- tx_length. lia. Qed.

Lemma send_history_lengths sec b mtus :
  map (map (@length N)) (send_history sec b mtus) =
  map (fun mtu => map (fun f => Z.to_nat (tx_size f)) (send_bundles sec b mtu)) mtus.
Proof. unfold send_history. rewrite map_map. apply map_ext. intros mtu. apply send_request_lengths. Qed.

Lemma send_request_frags sec b m l :
  (forall f, flag_set (flags (prim f)) flag_is_fragment = true -> sec f = f) ->
  one_payload (sec b) ->
  fragment_step (sec b) (Some m) = Frags l ->
  send_request sec b (Some m) = map tx l.
Proof.
  intros sec_frag Hone Hf. rewrite send_request_tx. unfold send_bundles. rewrite Hf. f_equal.
  destruct (fragment_step_frags _ _ _ Hone Hf) as (pd & _ & _ & _ & _ & Hall).
  clear Hf. induction Hall as [|f r (o & d & -> & _) _ IH]; [reflexivity|]. cbn [flat_map]. rewrite IH.
  unfold reenter_bundle. rewrite sec_frag, fragment_step_unchanged by auto using fragment_at_is_fragment. reflexivity.
Qed.

Lemma filter_all {A} (f : A -> bool) l : (forall x, In x l -> f x = true) -> filter f l = l.
Proof.
  induction l as [|x l IH]; intros H; [reflexivity|]. cbn [filter].
  rewrite (H x (or_introl eq_refl)), IH by (intros y Hy; apply H; right; exact Hy). reflexivity.
Qed.

Lemma strip_fill_tmpl d k : strip (fill_blk d (tmpl_blk k)) = strip k.
Proof.
  unfold strip. rewrite is_pay_fill, is_pay_tmpl. unfold fill_blk, tmpl_blk.
  destruct (is_pay k) eqn:E; [rewrite is_pay_set_btsd, E; reflexivity|]. rewrite E. reflexivity.
Qed.

Lemma strip_blocks_fragment_at b pd off d :
  0 <= off ->
  map strip (blocks (fragment_at b pd off d)) =
  map strip (if (Z.to_N off =? 0)%N then blocks b else filter (fun k => replicated k || is_pay k) (blocks b)).
Proof.
  intros Hoff. unfold fragment_at, fill, template. cbn [blocks]. rewrite !map_map.
  rewrite (map_ext _ strip) by (intros; apply strip_fill_tmpl).
  f_equal. unfold sel_blocks. rewrite Z2N.id by exact Hoff.
  destruct (N.eqb_spec (Z.to_N off) 0) as [E|E].
  - apply filter_all. intros k _. rewrite gen_keep. replace off with 0 by lia. reflexivity.
  - apply filter_ext. intros k. rewrite gen_keep. unfold replicated, is_pay.
    destruct (off =? 0) eqn:Z0; [lia|]. reflexivity.
Qed.

Theorem frags_tiling b m l pd :
  one_payload b -> fragment_step b (Some m) = Frags l -> payload_of b = Some pd ->
  concat (map frag_data l) = pd /\ offsets_from 0 l /\ Forall (fun f => frag_total f = Some (olen pd)) l.
Proof.
  intros Hone Hf Hp. destruct (fragment_step_frags _ _ _ Hone Hf) as (pd' & Hp' & A & B & _ & D).
  rewrite Hp in Hp'. injection Hp' as <-. split; [exact A|]. split; [exact B|].
  revert D. apply Forall_impl. intros f (o & d & -> & _). reflexivity.
Qed.

Theorem frags_progress b m l pd :
  one_payload b -> fragment_step b (Some m) = Frags l -> payload_of b = Some pd ->
  Forall (fun f => (1 <= length (frag_data f))%nat) l /\ (length l <= length pd)%nat.
Proof.
  intros Hone Hf Hp. destruct (fragment_step_frags _ _ _ Hone Hf) as (pd' & Hp' & _ & _ & C & D).
  rewrite Hp in Hp'. injection Hp' as <-. split; [|exact C].
  revert D. apply Forall_impl. intros f (o & d & -> & _ & Hd & _). rewrite (fragment_at_data b pd o d Hone). lia.
Qed.

Theorem frags_identity_blocks b m l :
  one_payload b -> fragment_step b (Some m) = Frags l ->
  Forall (fun f =>
            version (prim f) = version (prim b) /\ crc_type (prim f) = crc_type (prim b) /\
            dest (prim f) = dest (prim b) /\ src (prim f) = src (prim b) /\ report_to (prim f) = report_to (prim b) /\
            create_time (prim f) = create_time (prim b) /\ create_seq (prim f) = create_seq (prim b) /\
            lifetime (prim f) = lifetime (prim b) /\
            flags (prim f) = N.lor (flags (prim b)) flag_is_fragment /\
            flag_set (flags (prim f)) flag_is_fragment = true /\
            map strip (blocks f) =
            map strip (if (frag_off f =? 0)%N then blocks b
                       else filter (fun k => replicated k || is_pay k) (blocks b))) l.
Proof.
  intros Hone Hf. destruct (fragment_step_frags _ _ _ Hone Hf) as (pd & _ & _ & _ & _ & D).
  revert D. apply Forall_impl. intros f (o & d & -> & Ho & _).
  repeat (split; [reflexivity|]). split; [apply fragment_at_is_fragment|].
  apply strip_blocks_fragment_at. exact Ho.
Qed.

Lemma offsets_increasing : forall l off,
  offsets_from off l -> Forall (fun f => (1 <= length (frag_data f))%nat) l ->
  Forall (fun f => (off <= frag_off f)%N) l.
Proof.
  induction l as [|f r IH]; intros off H Hp; [constructor|].
  cbn [offsets_from] in H. destruct H as [Ho Hr]. inversion Hp as [|? ? Hf Hpr]; subst.
  constructor; [lia|]. specialize (IH _ Hr Hpr). revert IH. apply Forall_impl. intros g Hg. unfold olen in Hg. lia.
Qed.

Theorem frags_first_offset b m f l pd :
  one_payload b -> fragment_step b (Some m) = Frags (f :: l) -> payload_of b = Some pd ->
  frag_off f = 0%N /\ Forall (fun g => (0 < frag_off g)%N) l.
Proof.
  intros Hone Hf Hp.
  destruct (frags_tiling _ _ _ _ Hone Hf Hp) as (_ & Ho & _).
  destruct (frags_progress _ _ _ _ Hone Hf Hp) as (Hpr & _).
  cbn [offsets_from] in Ho. destruct Ho as [Ho Hr]. split; [exact Ho|].
  inversion Hpr as [|? ? Hf1 Hprr]; subst.
  pose proof (offsets_increasing _ _ Hr Hprr) as H. revert H. apply Forall_impl. intros g Hg. unfold olen in Hg. lia.
Qed.

Theorem send_unchanged sec b mtu :
  mtu = None \/ flag_set (flags (prim (sec b))) flag_no_fragment = true
  \/ flag_set (flags (prim (sec b))) flag_is_fragment = true
  \/ (exists m, mtu = Some m /\ tx_size (sec b) <= Z.of_N m) ->
  send_request sec b mtu = [tx (sec b)].
Proof. intros H. unfold send_request. rewrite (fragment_step_unchanged _ _ H). reflexivity. Qed.

Theorem send_all_or_nothing sec b m :
  (forall f, flag_set (flags (prim f)) flag_is_fragment = true -> sec f = f) ->
  frag_allowed (sec b) -> one_payload (sec b) -> Z.of_N m < tx_size (sec b) ->
  send_request sec b (Some m) = [] \/
  exists l, fragment_step (sec b) (Some m) = Frags l /\ send_request sec b (Some m) = map tx l.
Proof.
  intros Hsec Ha Hone Hbig. destruct (fragment_step_split _ _ Ha Hone Hbig) as [Hf|[l Hf]].
  - left. unfold send_request. rewrite Hf. reflexivity.
  - right. exists l. split; [exact Hf|]. exact (send_request_frags sec _ _ _ Hsec Hone Hf).
Qed.

Theorem send_infeasible sec b m pd :
  frag_allowed (sec b) -> payload_of (sec b) = Some pd -> Z.of_N m < tx_size (sec b) ->
  Z.of_N m < tx_size (template (sec b) 0 (olen pd)) + pyld_size_enc pd ->
  send_request sec b (Some m) = [].
Proof.
  intros [Hnf Hif] Hp Hbig Hroom. unfold send_request, fragment_step.
  assert (Hs : should_fragment true (Z.of_N m) (tx_size (sec b)) (flags (prim (sec b))) = true).
  { apply gen_should. repeat split; [lia|assumption|assumption]. }
  rewrite Hs, Hp.
  destruct (non_pyld_too_big _ _); [reflexivity|].
  rewrite gen_init. cbn [frag_loop].
  destruct (frag_loop_test 0 (Z.of_nat (length pd))) eqn:Ht; [|reflexivity].
  change (Z.to_N 0) with 0%N.
  destruct (frag_size_bad _) eqn:Hb; [reflexivity|].
  exfalso. apply gen_size_bad in Hb. rewrite gen_frag_size in Hb. lia.
Qed.

Theorem frags_within_mtu b m l :
  one_payload b -> fragment_step b (Some m) = Frags l ->
  Forall (fun f => Z.of_nat (length (tx f)) <= Z.of_N m) l.
Proof.
  intros Hone Hf. destruct (fragment_step_frags _ _ _ Hone Hf) as (pd & _ & _ & _ & _ & D).
  revert D. apply Forall_impl. intros f (o & d & _ & _ & _ & Hsz). rewrite tx_length. exact Hsz.
Qed.

(** it fits and goes out as it is, or it is split (or refused) and every fragment fits *)
Theorem within_mtu_sec sec
  (sec_frag : forall f, flag_set (flags (prim f)) flag_is_fragment = true -> sec f = f) b m :
  frag_allowed (sec b) -> one_payload (sec b) ->
  Forall (fun o => Z.of_nat (length o) <= Z.of_N m) (send_request sec b (Some m)).
Proof.
  intros Ha Hone. destruct (Z.le_gt_cases (tx_size (sec b)) (Z.of_N m)) as [Hle|Hgt].
  - rewrite send_unchanged by eauto 6. constructor; [|constructor]. rewrite tx_length. exact Hle.
  - destruct (send_all_or_nothing sec b m sec_frag Ha Hone Hgt) as [->|(l & Hf & ->)]; [constructor|].
    apply Forall_map. exact (frags_within_mtu _ _ _ Hone Hf).
Qed.

Theorem within_mtu_plain b m :
  frag_allowed b -> one_payload b ->
  Forall (fun o => Z.of_nat (length o) <= Z.of_N m) (send_request no_sec b (Some m)).
Proof. exact (within_mtu_sec no_sec (fun f _ => eq_refl) b m). Qed.

Theorem history_within_mtu b (ms : list N) :
  frag_allowed b -> one_payload b ->
  Forall (fun p : N * list bytes => Forall (fun o => Z.of_nat (length o) <= Z.of_N (fst p)) (snd p))
         (combine ms (send_history no_sec b (map Some ms))).
Proof.
  intros Ha Ho. unfold send_history. induction ms as [|m ms IH]; [constructor|].
  cbn [map combine]. constructor; [|exact IH]. cbn [fst snd]. apply within_mtu_plain; assumption.
Qed.

Lemma fold_max_ge l : forall a, (a <= fold_left (fun acc k => N.max acc (bnum k)) l a)%N.
Proof. induction l as [|k l IH]; intros a; cbn [fold_left]; [lia|]. specialize (IH (N.max a (bnum k))). lia. Qed.

Lemma find_skip {A} (p : A -> bool) x : forall a c, p x = false -> find p (a ++ x :: c) = find p (a ++ c).
Proof.
  induction a as [|y a IH]; intros c H; cbn [app find]; [rewrite H; reflexivity|].
  destruct (p y); [reflexivity|]. apply IH. exact H.
Qed.

Lemma add_bib_benign k f : prim (add_bib k f) = prim f /\ payload_of (add_bib k f) = payload_of f.
Proof.
  split; [reflexivity|]. unfold payload_of, add_bib. cbn [blocks app].
  rewrite find_skip.
  - rewrite firstn_skipn. reflexivity.
  - unfold is_pay, is_payload_block, block_num_payload. cbn [bnum].
    pose proof (fold_max_ge (blocks f) 1%N) as H. unfold max_num.
    destruct (N.eqb_spec (fold_left (fun acc k0 => N.max acc (bnum k0)) (blocks f) 1%N + 1) 1); [lia|reflexivity].
Qed.

(** a sample bundle: dtn://me/ -> dtn://far/svc, CRC-32C, a replicated and a plain extension block,
    [n] octets of payload *)
Definition sample (n : nat) : bundle :=
  mkBundle (mkPrimary 7 0 2 (EidDtn [47; 47; 102; 97; 114; 47; 115; 118; 99]%N) (EidDtn [47; 47; 109; 101; 47]%N) EidDtnNone
                      799999990000 3 3600000 None None)
           [mkCBlock 194 2 1 2 (gdata 5 7) None; mkCBlock 193 3 0 1 (gdata 6 9) None; mkCBlock 1 1 0 2 (gdata 7 n) None].

Lemma sec_witness_lengths :
  map (@length N) (send_request (add_bib 71) (sample 600) (Some 250%N)) = [327; 327; 327; 327; 210]%nat.
Proof. rewrite send_request_lengths. vm_compute. reflexivity. Qed.

Lemma sec_refuted :
  exists (sec : bundle -> bundle) (b : bundle) (m : N),
    (forall f, prim (sec f) = prim f /\ payload_of (sec f) = payload_of f) /\
    frag_allowed (sec b) /\ one_payload (sec b) /\
    ~ Forall (fun o => Z.of_nat (length o) <= Z.of_N m) (send_request sec b (Some m)).
Proof.
  exists (add_bib 71), (sample 600), 250%N. split; [apply add_bib_benign|]. split; [split; reflexivity|]. split; [reflexivity|].
  intros F. apply (Forall_map (@length N) (fun n => Z.of_nat n <= Z.of_N 250)) in F.
  rewrite sec_witness_lengths in F. inversion F. lia.
Qed.
