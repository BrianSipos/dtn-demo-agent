(** TCPCL endpoint model: every frame sent is well formed ([wf_frame]: each field
    fits its width), under explicit bounds on the configuration and the inputs. *)
From Coq Require Import NArith List Bool PeanoNat Lia.
From RecordUpdate Require Import RecordSet.
From DTN Require Import Lib.Bytes Model.TcpclMsg Model.TcpclSess Proofs.TcpclSessBasics
  Proofs.TcpclSentProofs1 Proofs.TcpclSentProofs2 Proofs.TcpclSentProofs5 Proofs.TcpclMsgProofs
  Proofs.TcpclSessSpec.
Import ListNotations RecordSetNotations.
Local Open Scope N_scope.


Definition cfg_ok (c : cfg) : Prop :=
  c_keepalive c < 65536 /\ c_seg_mru c < 2^64
  /\ N.of_nat (length (c_nodeid c)) < 65536 /\ wf_bytes (c_nodeid c).

Definition op_ok (o : op) : Prop :=
  match o with
  | ORx d => wf_bytes d
  | OTerm r => r < 256
  | OSend d => wf_bytes d /\ N.of_nat (length d) < 2^64
  | _ => True
  end.

Definition rxlen (o : op) : nat := match o with ORx d => length d | _ => 0%nat end.
Definition rx_total (ops : list op) : nat := fold_right (fun o n => (rxlen o + n)%nat) 0%nat ops.

Definition tx_ok (nid : N) (it : N * bytes) : Prop :=
  fst it < nid /\ wf_bytes (snd it) /\ N.of_nat (length (snd it)) < 2^64.

(** Octets accumulated for the transfer being received. *)
Definition acc_len (s : ep) : nat := match rx_tmp s with Some (_, a) => length a | None => 0%nat end.

Lemma wf_CH : wf_frame our_contact.
Proof. unfold our_contact. cbn. repeat split; try reflexivity. repeat constructor. Qed.

Lemma wf_sess_init c : cfg_ok c -> wf_frame (FMsg (sess_init_msg c)).
Proof.
  intros (H1&H2&H3&H4). unfold sess_init_msg. cbn [wf_frame wf_msg]. repeat split; try assumption; try reflexivity.
  constructor.
Qed.

Lemma Forall_if {A} (P : A -> Prop) (b : bool) l : Forall P l -> Forall P (if b then l else []).
Proof. destruct b; [trivial|constructor]. Qed.

Lemma Forall_one {A} (P : A -> Prop) x : P x -> Forall P [x].
Proof. repeat constructor. assumption. Qed.

Lemma wf_out_contact c s : cfg_ok (cf s) -> Forall wf_frame (out_contact c s).
Proof.
  intros H. unfold out_contact. destruct (contact_ok c); [|constructor].
  apply Forall_app. split; apply Forall_if, Forall_one; [apply wf_CH|apply wf_sess_init, H].
Qed.

Lemma wf_rej m : Forall wf_frame (rej m).
Proof. apply Forall_one. destruct m; cbn; split; reflexivity. Qed.

Lemma wf_out_term r reply s : r < 256 -> Forall wf_frame (out_term r reply s).
Proof. intros H. apply Forall_if, Forall_one. split; [destruct reply; reflexivity|exact H]. Qed.

Definition datalen (m : msg) : nat := match m with MXferSeg _ _ _ d => length d | _ => 0%nat end.

Lemma acc_bound fl xid data s acc : seg_acc fl xid data s = Some acc ->
  (length acc <= acc_len s + length data)%nat.
Proof.
  unfold seg_acc, acc_len. destruct (has_start fl); [intros H; inversion H; lia|].
  destruct (rx_tmp s) as [[cur a]|]; [|discriminate]. destruct (cur =? xid); [|discriminate].
  intros H. inversion H. rewrite app_length. lia.
Qed.

Lemma wf_out_msg m s B : cfg_ok (cf s) -> wf_msg m -> (acc_len s + datalen m <= B)%nat -> N.of_nat B < 2^64 ->
  Forall wf_frame (out_msg m s).
Proof.
  intros Hc Hm Hb HB. destruct m as [fl xid ext data|fl xid len|r xid| |fl r|a b|ka smru xmru nid ext];
    cbn [out_msg datalen] in *; try constructor; try (destruct (in_sess s); [|apply wf_rej]).
  - destruct (seg_acc fl xid data s) as [acc|] eqn:Ea; [|apply wf_rej].
    pose proof (acc_bound _ _ _ _ _ Ea). destruct Hm as (H1&H2&_).
    apply Forall_one. cbn [wf_frame wf_msg]. repeat split; try assumption. lia.
  - destruct (dict_get xid (tx_map s)); [apply Forall_if|]; apply wf_rej.
  - destruct (dict_get xid (tx_map s)); [constructor|apply wf_rej].
  - apply wf_out_term, Hm.
  - apply Forall_if, Forall_one, wf_sess_init, Hc.
Qed.

Lemma total_ext_wf total : wf_region xfer_ext_len (total_length_ext total).
Proof.
  unfold total_length_ext. split; [|split].
  - unfold encode_ext. cbn [ei_flags ei_type ei_val]. rewrite !app_length, !be_length. reflexivity.
  - unfold encode_ext. cbn [ei_flags ei_type ei_val]. wfb.
  - unfold ext_count_ok.
    replace (encode_ext (mkExt 0 1 (be 8 total))) with (encode_exts [mkExt 0 1 (be 8 total)])
      by (unfold encode_exts; cbn [map concat]; apply app_nil_r).
    rewrite scapy_view_single; [reflexivity|].
    unfold wf_ext. cbn [ei_flags ei_type ei_val]. rewrite be_length. repeat split; try reflexivity. apply be_wf.
Qed.

Lemma wf_seg_of it len sz nid : tx_ok nid it -> nid <= 2^64 -> Forall wf_frame (seg_of (Some it) len sz).
Proof.
  intros (H1&H2&H3) Hn. unfold seg_of. destruct it as [i d]. cbv zeta. cbn [fst snd] in *.
  destruct ((len =? N.of_nat (length d)) && (0 <? len)); [constructor|].
  constructor; [|constructor]. cbn [wf_frame wf_msg].
  set (seg := firstn (N.to_nat sz) (skipn (N.to_nat len) d)).
  assert (Hl : (length seg <= length d)%nat).
  { unfold seg. rewrite firstn_length, skipn_length. lia. }
  split; [destruct (len =? 0), (len + N.of_nat (length seg) =? N.of_nat (length d)); reflexivity|].
  split; [lia|]. split; [destruct (len =? 0); [apply total_ext_wf|apply nil_region_wf]|].
  split; [destruct (len =? 0), (len + N.of_nat (length seg) =? N.of_nat (length d)); cbn; intros H; try discriminate H; reflexivity|].
  split; [lia|]. unfold seg. apply wf_bytes_firstn, wf_bytes_skipn, H2.
Qed.

Lemma wf_out_op o s : op_ok o ->
  Forall (tx_ok (next_id s)) (pend_start s) -> (forall it, tx_tmp s = Some it -> tx_ok (next_id s) it) ->
  next_id s <= 2^64 -> Forall wf_frame (out_op o s).
Proof.
  intros Ho Hp Ht Hn. destruct o; cbn [out_op op_ok] in *; try constructor.
  - apply Forall_if, Forall_one, wf_CH.
  - apply wf_out_term, Ho.
  - destruct (0 <? n_pq s)%nat; [|constructor]. unfold out_pq.
    destruct (tx_tmp s) as [it|]; [exact (wf_seg_of it _ _ _ (Ht it eq_refl) Hn)|].
    destruct (in_sess s && negb (in_term s)); [|constructor].
    destruct (pend_start s) as [|[i d] r]; [constructor|]. inversion Hp as [|x y Hx Hy]. subst.
    exact (wf_seg_of _ _ _ _ Hx Hn).
  - destruct (ka_due s) as [due|]; [|constructor]. apply Forall_if, Forall_one. exact I.
  - destruct (idle_due s) as [due|]; [|constructor]. destruct (due <=? now s); [|constructor].
    apply wf_out_term. reflexivity.
Qed.

(** Everything sent is well formed, and what keeps it so: [a] bounds the
    transfer ids handed out, [b] the octets buffered or accumulated for the
    segment being received (an acknowledged length). *)
Definition W (a : N) (b : nat) (s : ep) : Prop :=
  cfg_ok (cf s) /\ Forall wf_frame (sent s) /\ wf_bytes (rx_buf s)
  /\ (length (rx_buf s) + acc_len s <= b)%nat
  /\ next_id s <= a
  /\ Forall (tx_ok (next_id s)) (pend_start s)
  /\ (forall it, tx_tmp s = Some it -> tx_ok (next_id s) it).

Lemma tx_ok_mono n n' it : n <= n' -> tx_ok n it -> tx_ok n' it.
Proof. intros H (H1&H2&H3). split; [lia|]. split; assumption. Qed.

Lemma datalen_enc m : (datalen m <= length (encode_frame (FMsg m)))%nat.
Proof. destruct m; cbn [datalen]; try lia. unfold encode_frame, encode_msg. rewrite !app_length. lia. Qed.

Lemma acc_len_recv_frame f s : (acc_len (fst (recv_frame f s)) <= acc_len s + length (encode_frame f))%nat.
Proof.
  destruct f as [c|m]; [destruct (recv_contact_spec c s); unfold acc_len; ep_cbn; lia|].
  pose proof (datalen_enc m) as Hd. rewrite recv_msg_pr.
  destruct (handle_msg_spec m s); spec_cases; unfold acc_len; ep_cbn; cbn [datalen] in Hd; try lia;
    match goal with E : rx_tmp s = _ |- _ => rewrite E end; rewrite app_length; lia.
Qed.

Lemma wf_sent_recv_frame f s B : cfg_ok (cf s) -> wf_frame f ->
  (acc_len s + length (encode_frame f) <= B)%nat -> N.of_nat B < 2^64 ->
  Forall wf_frame (sent s) -> Forall wf_frame (sent (fst (recv_frame f s))).
Proof.
  intros Hc Hf Hb HB H. destruct f as [c|m].
  - rewrite sent_recv_contact. apply Forall_app. split; [exact H|apply wf_out_contact, Hc].
  - rewrite sent_recv_msg. apply Forall_app. split; [exact H|].
    apply (wf_out_msg m s B); try assumption. pose proof (datalen_enc m). lia.
Qed.

Lemma W_recv_frame a b fr rest s : N.of_nat b < 2^64 ->
  W a b s -> parse_frame (in_conn s) (rx_buf s) = Some (fr, rest) ->
  W a b (fst (recv_frame fr (s <| rx_buf := rest |> <| handled := handled s ++ [fr] |>))).
Proof.
  intros Hb (W1&W2&W3&W4&W5&W6&W7) Hp.
  apply frame_parse_sound in Hp; [|exact W3]. destruct Hp as (Eb&[Hwf _]&Hr).
  rewrite Eb, app_length in W4.
  set (s0 := s <| rx_buf := rest |> <| handled := handled s ++ [fr] |>).
  pose proof (acc_len_recv_frame fr s0) as Hacc. change (acc_len s0) with (acc_len s) in Hacc.
  unfold W. destruct (rx_buf_next_id_recv_frame fr s0) as [-> ->]. rewrite cf_recv_frame.
  refine (conj W1 (conj _ (conj Hr (conj _ (conj W5 (conj _ _)))))); [| cbn; lia | |].
  - apply (wf_sent_recv_frame fr s0 b); try assumption. change (acc_len s0) with (acc_len s). lia.
  - apply (pend_start_recv_frame (tx_ok (next_id s))), W6.
  - intros it E. apply W7, (tx_tmp_recv_frame fr s0 it E).
Qed.

Lemma W_step_o a b o s : a + 1 <= 2^64 -> W a b s -> op_ok o -> closed s = false -> not_rx o = true ->
  W (a + 1) b (step s o).
Proof.
  intros Ha (W1&W2&W3&W4&W5&W6&W7) Hok Hc Ho. unfold W.
  rewrite (step_cf s o), (sent_step o s Hc Ho), (rx_buf_step_o o s Ho), (next_id_step_o o s Hc Ho).
  unfold acc_len. rewrite (rx_tmp_step_o o s Ho). fold (acc_len s).
  assert (Hn : next_id s <= match o with OSend _ => if in_term s then next_id s else next_id s + 1 | _ => next_id s end)
    by (destruct o; try lia; destruct (in_term s); lia).
  refine (conj W1 (conj _ (conj W3 (conj W4 (conj _ (conj _ _)))))); [| destruct o; try lia; destruct (in_term s); lia | |].
  - apply Forall_app. split; [exact W2|]. apply wf_out_op; try assumption. lia.
  - apply pend_start_step_o; [exact Ho| |].
    + eapply Forall_impl; [|exact W6]. intros it. apply tx_ok_mono, Hn.
    + intros d E Ht. subst o. rewrite Ht. cbn [op_ok] in Hok. destruct Hok as [H1 H2]. split; [cbn; lia|]. split; assumption.
  - intros it E. apply (tx_ok_mono (next_id s)); [exact Hn|].
    destruct (tx_tmp_step_o_origin o s it Ho E) as [E'|Hin]; [apply W7, E'|].
    rewrite Forall_forall in W6. apply W6, Hin.
Qed.

Lemma W_mono a b a' b' s : a <= a' -> (b <= b')%nat -> W a b s -> W a' b' s.
Proof.
  intros Ha Hb (W1&W2&W3&W4&W5&W6&W7). refine (conj W1 (conj W2 (conj W3 (conj _ (conj _ (conj W6 W7)))))); lia.
Qed.

Lemma W_upd a b s rb i t : W a b s -> wf_bytes rb -> (length rb + acc_len s <= b)%nat ->
  W a b (s <| t_recv := t |> <| idle_due := i |> <| rx_buf := rb |>).
Proof.
  intros (W1&W2&W3&W4&W5&W6&W7) H1 H2. exact (conj W1 (conj W2 (conj H1 (conj H2 (conj W5 (conj W6 W7)))))).
Qed.

Lemma W_step a b o s : a + 1 <= 2^64 -> N.of_nat (b + rxlen o) < 2^64 ->
  W a b s -> op_ok o -> W (a + 1) (b + rxlen o) (step s o).
Proof.
  intros Ha Hb HW Hok. pose proof (W_mono a b) as Hm.
  apply (step_ind_at (W (a + 1) (b + rxlen o)) (W a (b + rxlen o))).
  - apply (Hm _ _ s); [lia|lia|exact HW].
  - intros dt. apply (Hm _ _ s); [lia|lia|exact HW].
  - intros Hc Ho. apply (W_mono (a + 1) b); [lia|lia|]. apply W_step_o; auto. destruct o; try reflexivity; discriminate Ho.
  - (* the octets read join the receive buffer; each frame then moves its own from there *)
    intros data -> _. cbn [rxlen op_ok] in *. unfold rx_begin.
    apply W_upd; [apply (Hm _ _ s); [lia|lia|exact HW]| |].
    + apply wf_bytes_app. split; [apply HW|exact Hok].
    + destruct HW as (_&_&_&W4&_). rewrite app_length. lia.
  - intros s0 fr rest H0 _ Hp. apply W_recv_frame; [exact Hb|exact H0|exact Hp].
  - intros s'. apply W_mono; lia.
  - intros s' k H. apply (W_mono a (b + rxlen o)); [lia|lia|exact H].
Qed.

Lemma rx_total_snoc ops o : rx_total (ops ++ [o]) = (rx_total ops + rxlen o)%nat.
Proof. induction ops as [|x ops IH]; cbn [app rx_total fold_right]; [lia|]. fold (rx_total (ops ++ [o])). fold (rx_total ops). lia. Qed.

Lemma W_run c ops : cfg_ok c -> Forall op_ok ops ->
  1 + N.of_nat (length ops) <= 2^64 -> N.of_nat (rx_total ops) < 2^64 ->
  W (1 + N.of_nat (length ops)) (rx_total ops) (run c ops).
Proof.
  intros Hc. induction ops as [|o ops IH] using rev_ind; intros Hok Hl Hr.
  - unfold W, init, run. cbn. split; [exact Hc|]. repeat split; try constructor; try lia; try (intros; discriminate).
  - apply Forall_app in Hok. destruct Hok as [Hok Ho]. inversion Ho as [|x y Hox _]. subst.
    rewrite app_length, Nat.add_1_r, Nat2N.inj_succ in *. rewrite rx_total_snoc in *. rewrite run_snoc.
    replace (1 + N.succ (N.of_nat (length ops))) with (1 + N.of_nat (length ops) + 1) by lia.
    apply W_step; [lia|exact Hr| |exact Hox]. apply IH; [exact Hok|lia|lia].
Qed.

(** Every frame sent is well formed, provided the configuration fits the field
    widths (keepalive < 2^16, segment MRU < 2^64, node id shorter than 2^16
    octets), every read delivers octets (< 256), every terminate() reason is an
    octet, every bundle handed over is made of octets and shorter than 2^64,
    fewer than 2^64 operations are performed (transfer ids) and fewer than 2^64
    octets are received (acknowledged lengths). *)
Theorem sent_wf c ops : cfg_ok c -> Forall op_ok ops ->
  1 + N.of_nat (length ops) <= 2^64 -> N.of_nat (rx_total ops) < 2^64 ->
  Forall wf_frame (sent (run c ops)).
Proof. intros H1 H2 H3 H4. destruct (W_run c ops H1 H2 H3 H4) as (_&H&_). exact H. Qed.
