(** Transfers with different keys (channel = local interface, peer address,
    local address, VLAN tag; transfer number) do not influence each other:
    what the receiver holds and completes for one key while segments of
    several transfers arrive interleaved is what it holds and completes when
    the segments of that key arrive alone.  With the single-transfer theorem:
    every interleaving of complete transfers with pairwise different keys
    queues each bundle exactly once. *)
From Coq Require Import NArith List Bool Permutation.
From DTN Require Import Lib.Bytes Model.Btpu Proofs.BtpuProofs Proofs.BtpuSendProofs Proofs.BtpuRecvProofs Proofs.BtpuTopProofs.
Import ListNotations.
Local Open Scope N_scope.

(** The peer address is part of the key: channels that differ in it are different keys. *)
Lemma key_eqb_peer a b x y : c_peer a <> c_peer b -> key_eqb (a, x) (b, y) = false.
Proof.
  intros H. destruct (key_eqb (a, x) (b, y)) eqn:E; [|reflexivity]. apply key_eqb_eq in E. congruence.
Qed.

Definition next_cur (cur : option xfer) (it : item) : option xfer :=
  match it_data it with
  | [] => cur
  | _ :: _ =>
      match seg_step cur (it_last it) (it_idx it) (it_data it) with
      | (_, Some _) => None
      | (Some x', None) => Some x'
      | (None, None) => cur
      end
  end.

Lemma recv_item_spec st it :
  (forall k, plookup k (r_prog (recv_item st it))
             = if key_eqb k (item_key it) then next_cur (plookup (item_key it) (r_prog st)) it
               else plookup k (r_prog st))
  /\ queued (recv_item st it) = queued st ++ item_out st it.
Proof.
  assert (Hsame : forall k, plookup k (r_prog st)
            = if key_eqb k (item_key it) then plookup (item_key it) (r_prog st) else plookup k (r_prog st)).
  { intros k. destruct (key_eqb k _) eqn:E; [apply key_eqb_eq in E; subst k|]; reflexivity. }
  unfold recv_item, recv_seg, next_cur, item_out, queued, item_key in *.
  destruct (it_data it) as [|d0 dt]; [cbn [fst]; rewrite app_nil_r; auto|].
  destruct (seg_step _ _ _ _) as [[x'|] [full|]]; unfold add_rx; cbn [fst snd r_prog r_queue];
    rewrite ?map_app, ?app_nil_r; (split; [intros k|reflexivity]).
  - apply (plookup_update _ None).
  - apply (plookup_update _ (Some x')).
  - apply (plookup_update _ None).
  - apply Hsame.
Qed.

Lemma independent_gen k : forall l s s',
  plookup k (r_prog s) = plookup k (r_prog s') ->
  plookup k (r_prog (fold_left recv_item l s)) = plookup k (r_prog (fold_left recv_item (for_key k l) s'))
  /\ completions k s l = completions k s' (for_key k l).
Proof.
  induction l as [|it t IH]; intros s s' H; [split; [exact H|reflexivity]|].
  cbn [for_key filter fold_left completions]. fold (for_key k t).
  destruct (key_eqb (item_key it) k) eqn:E.
  - pose proof (proj1 (key_eqb_eq _ _) E) as Ek. cbn [fold_left completions]. rewrite E.
    assert (H2 : plookup k (r_prog (recv_item s it)) = plookup k (r_prog (recv_item s' it))).
    { rewrite !(proj1 (recv_item_spec _ it)), key_eqb_sym, E, Ek, H. reflexivity. }
    destruct (IH _ _ H2) as [A B]. split; [exact A|].
    rewrite B. unfold item_out. rewrite Ek, H. reflexivity.
  - assert (H2 : plookup k (r_prog (recv_item s it)) = plookup k (r_prog s')).
    { rewrite (proj1 (recv_item_spec s it)), key_eqb_sym, E. exact H. }
    destruct (IH _ _ H2) as [A B]. split; [exact A|]. cbn [app]. exact B.
Qed.

Theorem independent k l st :
  plookup k (r_prog (fold_left recv_item l st)) = plookup k (r_prog (fold_left recv_item (for_key k l) st))
  /\ completions k st l = completions k st (for_key k l).
Proof. apply independent_gen. reflexivity. Qed.

Lemma queued_all_key k : forall l st,
  Forall (fun it => key_eqb (item_key it) k = true) l ->
  queued (fold_left recv_item l st) = queued st ++ completions k st l.
Proof.
  induction l as [|it t IH]; intros st H; cbn [fold_left completions]; [rewrite app_nil_r; reflexivity|].
  inversion H as [|? ? Hk Ht]; subst. rewrite Hk, (IH _ Ht), (proj2 (recv_item_spec st it)), app_assoc. reflexivity.
Qed.

Lemma for_key_all k l : Forall (fun it => key_eqb (item_key it) k = true) (for_key k l).
Proof. apply Forall_forall. intros it Hin. apply filter_In in Hin. tauto. Qed.

Lemma recv_item_seg hs xid conv st s :
  seg_encodable hs xid s -> recv_frame conv st (seg_frame hs xid s) = recv_item st (seg_item conv xid s).
Proof.
  intros He. rewrite (recv_frame_seg hs xid conv st s He). destruct s as [[i d] b]. reflexivity.
Qed.

Lemma fold_items hs xid conv : forall l st,
  Forall (seg_encodable hs xid) l ->
  fold_left (fun s it => recv_frame conv s (seg_frame hs xid it)) l st
  = fold_left recv_item (map (seg_item conv xid) l) st.
Proof.
  induction l as [|s t IH]; intros st H; [reflexivity|]. inversion H; subst.
  cbn [map fold_left]. rewrite recv_item_seg by assumption. apply IH. assumption.
Qed.

(** Whatever else arrives in between (segments of transfers with other keys,
    complete or not): if the segments of the transfer [(conv, xid)] of [data]
    are among the arrivals [l], each exactly once, in any order, and nothing
    was in progress under that key, then exactly that bundle is completed for
    the key, exactly once. *)
Theorem interleaved_transfer hs mtu xid conv data st l p :
  xfer_okb hs mtu xid data = true ->
  plookup (conv, xid) (r_prog st) = None ->
  Permutation p (segments hs mtu data) ->
  for_key (conv, xid) l = map (seg_item conv xid) p ->
  completions (conv, xid) st l = [data]
  /\ plookup (conv, xid) (r_prog (fold_left recv_item l st)) = None.
Proof.
  intros Hok Hfresh Hp Hl. apply xfer_okb_spec in Hok. pose proof Hok as (Hm & Hf & _).
  destruct (independent (conv, xid) l st) as [A B]. rewrite A, B, Hl.
  assert (Henc : Forall (seg_encodable hs xid) p).
  { eapply Permutation_Forall; [symmetry; exact Hp|]. apply (segments_encodable _ _ _ _ Hok). }
  destruct (segments_spec hs mtu data Hm) as (Hsh & Hcat & _).
  pose proof (reassembly_segs hs xid conv st (segments hs mtu data) Hsh (segments_ge2 hs mtu data Hm Hf)
                (segments_encodable hs mtu xid data Hok) Hfresh p Hp) as R.
  cbn zeta in R. rewrite Hcat in R.
  rewrite (fold_items hs xid conv p st Henc) in R. destruct R as (R1 & _ & R4 & _).
  split; [|exact R4].
  pose proof (queued_all_key (conv, xid) (for_key (conv, xid) l) st (for_key_all _ _)) as Q.
  rewrite Hl in Q.
  unfold queued in Q at 1. rewrite R1, map_app in Q. cbn [map snd] in Q.
  apply app_inv_head in Q. symmetry. exact Q.
Qed.

Example interleaved_nonvacuous :
  let a := mkChan 1 1 255 None in
  let b := mkChan 1 2 255 None in
  let sa := segments (xfer_hints 40) 30 (mkdata 1 40) in
  let sb := segments (xfer_hints 30) 30 (mkdata 2 30) in
  let l := [seg_item a 0 (nth 1 sa (0, [], false)); seg_item b 0 (nth 0 sb (0, [], false));
            seg_item a 0 (nth 0 sa (0, [], false)); seg_item b 0 (nth 2 sb (0, [], false));
            seg_item a 0 (nth 3 sa (0, [], false)); seg_item b 0 (nth 1 sb (0, [], false));
            seg_item a 0 (nth 2 sa (0, [], false))] in
  xfer_okb (xfer_hints 40) 30 0 (mkdata 1 40) = true /\ xfer_okb (xfer_hints 30) 30 0 (mkdata 2 30) = true
  /\ key_eqb (a, 0) (b, 0) = false
  /\ completions (a, 0) rx_init l = [mkdata 1 40] /\ completions (b, 0) rx_init l = [mkdata 2 30]
  /\ queued (fold_left recv_item l rx_init) = [mkdata 2 30; mkdata 1 40].
Proof.
  assert (E : mkdata 2 30 = ltac:(let v := eval vm_compute in (mkdata 2 30) in exact v)) by (vm_compute; reflexivity).
  cbv zeta. rewrite mkdata_1_40, E. vm_compute. repeat split.
Qed.
