(** Tie between the endpoint model's handling of XFER_ACK, XFER_REFUSE and
    SESS_TERM ([handle_msg] in Model/TcpclSess.v) and the functions that
    translate/targets/tcpclhandlers.py regenerates from
    ContactHandler.recv_xfer_ack / recv_xfer_refuse / recv_sess_term of
    tcpcl/session.py on every run (Gen/TcpclHandlers.v): for every endpoint
    state, the abstraction of the model's result is the generated function's
    result on the abstraction of the state -- outcome, the sending-side fields
    of the abstract handler state ([tx_tie]), and the D-Bus signals emitted;
    nothing is said of [h_rx_tmp], [h_rx_map], [h_sent] and the three switches
    [h_ack_final], [h_ack_inter], [h_modulate].
    If a guard, a collection update or a signal of the code changes, the
    regenerated definitions change and these lemmas stop checking. *)
From Coq Require Import NArith List Bool.
From RecordUpdate Require Import RecordSet.
From DTN Require Import Lib.Bytes Model.TcpclMsg Model.TcpclSess Model.TcpclHandlerSt Gen.TcpclHandlers
  Proofs.TcpclSessSpec.
Import ListNotations RecordSetNotations.
Local Open Scope N_scope.

(** [_tx_pend_start] as [habs] has it: no queued item has a total length yet. *)
Definition pabs (l : list (N * bytes)) : list (N * option N) := map (fun it => (fst it, @None N)) l.

Lemma pabs_dict_del k l : dict_del k (pabs l) = pabs (dict_del k l).
Proof.
  induction l as [|[k' v] l IH]; [reflexivity|]. cbn [pabs map fst dict_del]. fold (pabs l).
  destruct (k' =? k); [reflexivity|]. cbn [map fst]. fold (pabs (dict_del k l)). rewrite IH. reflexivity.
Qed.

Lemma pabs_absent k l : pend_has k (pabs l) = false -> dict_del k l = l.
Proof.
  induction l as [|[k' v] l IH]; [reflexivity|]. cbn [pabs map fst pend_has existsb dict_del]. fold (pabs l).
  destruct (k' =? k); cbn [orb]; [discriminate|]. intros H. fold (pend_has k (pabs l)) in H. rewrite IH by exact H. reflexivity.
Qed.

Lemma dict_del_absent {V} k (d : list (N * V)) : dict_get k d = None -> dict_del k d = d.
Proof.
  induction d as [|[k' v] d IH]; [reflexivity|]. cbn [dict_get dict_del].
  destruct (k' =? k); [discriminate|]. intros H. rewrite IH by exact H. reflexivity.
Qed.

Lemma tmp_is_cur xid s :
  negb (is_none match tx_tmp s with Some (i, _) => Some i | None => None end)
  && tmp_is xid match tx_tmp s with Some (i, _) => Some i | None => None end = tx_cur_is xid s.
Proof. unfold tx_cur_is. destruct (tx_tmp s) as [[cur d]|]; reflexivity. Qed.

(** The report loop of recv_sess_term and of close: every transfer of the queue
    [l] leaves the transmit map and is reported, in queue order. *)
Definition reported (l : list (N * bytes)) (h : hst) : hst :=
  mkH (h_in_sess h) (h_in_conn h) (h_ack_final h) (h_ack_inter h) (h_modulate h) (del_all l (h_tx_map h))
      (h_pend_start h) (h_pend_ack h) (h_tx_tmp h) (h_tx_len h) (h_pq h) (h_rx_tmp h) (h_rx_map h) (h_sent h)
      (h_events h ++ map TcpclXferSpec.term_ev l) (h_check h).

Lemma report_fold (item : N * option N -> hst -> hst) :
  (forall it h, item it h =
     h_emit (ESig SigSendFinished [PStrNum (fst it); PInt (opt_or0 (snd it)); PStr RES_TERMINATING])
            (set_h_tx_map (dict_del (fst it) (h_tx_map h)) h)) ->
  forall l h, fold_left (fun h it => item it h) (pabs l) h = reported l h.
Proof.
  intros Hi. induction l as [|it l IH]; intros h; cbn [pabs map fold_left].
  - destruct h; unfold reported; cbn. rewrite app_nil_r. reflexivity.
  - fold (pabs l). rewrite IH, Hi. destruct h; unfold reported, del_all, TcpclXferSpec.term_ev; cbn.
    rewrite <- app_assoc. reflexivity.
Qed.

(** Compute the projections of a handler state built by the generated setters. *)
Ltac h_cbn := cbn [h_in_sess h_in_conn h_ack_final h_ack_inter h_modulate h_tx_map h_pend_start h_pend_ack
  h_tx_tmp h_tx_len h_pq h_rx_tmp h_rx_map h_sent h_events h_check set_h_tx_map set_h_pend_start set_h_pend_ack
  set_h_tx_tmp set_h_tx_len set_h_pq set_h_rx_tmp set_h_rx_map set_h_check h_emit h_send habs reported
  outcome_code gen_tx_teardown gen_rx_setup gen_rx_teardown is_none fst snd negb orb].

(** The model's trace against the signals of the generated handler: after them
    the model adds [EClosed] when [_check_sess_term] closed the connection.
    In the two lemmas [rhs] is the right-hand side of the comparison as a
    function of that tail, whatever stands before it. *)
Definition tail_ok (chk : bool) (tail : list event) : Prop := tail = [] \/ (tail = [EClosed] /\ chk = true).

Lemma no_tail chk t (rhs : list event -> list event) : t = rhs [] ->
  exists tail, t = rhs tail /\ tail_ok chk tail.
Proof. intros ->. exists []. split; [reflexivity|left; reflexivity]. Qed.

(** The trace of [check_sess_term' s1] where [trace s1 = t]. *)
Lemma close_tail (c d : bool) t (rhs : list event -> list event) : (forall tail, t ++ tail = rhs tail) ->
  exists tail, (if c then if d then t else t ++ [EClosed] else t) = rhs tail /\ tail_ok true tail.
Proof.
  intros H. destruct c; [destruct d|]; [exists []|exists [EClosed]|exists []]; rewrite <- H, ?app_nil_r;
    (split; [reflexivity|]); [left|right; split|left]; reflexivity.
Qed.

Definition ev_plain (s : ep) (h : hst) (s' : ep) : Prop :=
  exists tail, trace s' = trace s ++ h_events h ++ tail /\ tail_ok (h_check h) tail.

(** SESS_TERM: the model's own reply may change the state first. *)
Definition ev_term (s : ep) (h : hst) (s' : ep) : Prop :=
  exists t1 tail, trace s' = trace s ++ t1 ++ h_events h ++ tail
                  /\ (t1 = [] \/ t1 = [ESig SigState [PStr ST_ENDING]])
                  /\ tail_ok (h_check h) tail.

(** [quiet]: no state change was signalled first (no reply was sent, or the
    state was ENDING already). *)
Lemma ev_term_intro s h s' (quiet : bool) :
  ev_plain (s <| trace := if quiet then trace s else trace s ++ [ESig SigState [PStr ST_ENDING]] |>) h s' ->
  ev_term s h s'.
Proof.
  intros (tail & E & Ht). exists (if quiet then [] else [ESig SigState [PStr ST_ENDING]]), tail.
  split; [|split; [destruct quiet; auto|exact Ht]].
  rewrite E. ep_cbn. destruct quiet; rewrite <- ?app_assoc; reflexivity.
Qed.

(** The tie; [ev] is [ev_plain] or [ev_term]. *)
Definition tx_tie (ev : ep -> hst -> ep -> Prop) (s : ep) (g : hst * option N) (r : ep * outcome) : Prop :=
  snd g = outcome_code (snd r)
  /\ h_in_sess (fst g) = in_sess (fst r) /\ h_in_conn (fst g) = in_conn (fst r)
  /\ h_tx_map (fst g) = tx_map (fst r)
  /\ h_pend_start (fst g) = pabs (pend_start (fst r))
  /\ h_pend_ack (fst g) = pend_ack (fst r)
  /\ h_tx_tmp (fst g) = match tx_tmp (fst r) with Some (i, _) => Some i | None => None end
  /\ h_tx_len (fst g) = tx_len (fst r) /\ h_pq (fst g) = pq_set (fst r)
  /\ ev s (fst g) (fst r)
  /\ (h_check (fst g) = false -> closed (fst r) = closed s).

(** A leaf of the case analysis: both sides compute to the same term, the case
    is excluded by [h_check], a key is deleted that was absent, or traces are
    compared. *)
Ltac tie_leaf :=
  first [ reflexivity | discriminate
        | apply dict_del_absent; assumption
        | apply pabs_dict_del
        | match goal with E : pend_has _ _ = false |- _ => rewrite (pabs_absent _ _ E); reflexivity end
        | unfold ev_plain; h_cbn; ep_cbn;
          first [ apply no_tail; rewrite <- ?app_assoc, ?app_nil_r; reflexivity
                | apply close_tail; intros; rewrite <- ?app_assoc; reflexivity ] ].

(** On each path of [handle_msg] the generated handler, run on [habs s] under
    the conditions of the path, computes to a state whose fields are compared
    with the projections of the model's result. *)
Lemma hm_tie m s r : hm_spec m s r ->
  match m with
  | MXferAck fl xid len => tx_tie ev_plain s (gen_recv_xfer_ack xid fl len (habs s)) r
  | MXferRefuse reason xid => tx_tie ev_plain s (gen_recv_xfer_refuse xid reason (habs s)) r
  | MSessTerm fl reason => tx_tie ev_term s (gen_recv_sess_term reason (habs s)) r
  | _ => True
  end.
Proof.
  destruct 1; try exact I; unfold gen_recv_xfer_ack, gen_recv_xfer_refuse, gen_recv_sess_term; cbv zeta; h_cbn;
    rewrite ?tmp_is_cur; fold (pabs (pend_start s)); rw_hyps;
    try match goal with |- context [pend_has ?k ?l] => destruct (pend_has k l) eqn:Ep end;
    rewrite ?(report_fold _ (fun _ _ => eq_refl));
    unfold tx_tie; h_cbn; ep_cbn; fold (pabs (pend_start s));
    repeat apply conj; try tie_leaf.
  (* left: the traces of the three paths of SESS_TERM (rejected, already terminating, reply sent) *)
  - apply (ev_term_intro _ _ _ true); tie_leaf.
  - apply (ev_term_intro _ _ _ true); tie_leaf.
  - apply (ev_term_intro _ _ _ (state s =? ST_ENDING)); tie_leaf.
Qed.

Theorem tie_xfer_ack s fl xid len :
  let g := gen_recv_xfer_ack xid fl len (habs s) in
  let r := handle_msg (MXferAck fl xid len) s in
  snd g = outcome_code (snd r)
  /\ h_in_sess (fst g) = in_sess (fst r) /\ h_in_conn (fst g) = in_conn (fst r)
  /\ h_tx_map (fst g) = tx_map (fst r)
  /\ h_pend_start (fst g) = map (fun it => (fst it, None)) (pend_start (fst r))
  /\ h_pend_ack (fst g) = pend_ack (fst r)
  /\ h_tx_tmp (fst g) = match tx_tmp (fst r) with Some (i, _) => Some i | None => None end
  /\ h_tx_len (fst g) = tx_len (fst r) /\ h_pq (fst g) = pq_set (fst r)
  /\ (exists tail, trace (fst r) = trace s ++ h_events (fst g) ++ tail
                   /\ (tail = [] \/ (tail = [EClosed] /\ h_check (fst g) = true)))
  /\ (h_check (fst g) = false -> closed (fst r) = closed s).
Proof. exact (hm_tie _ _ _ (handle_msg_spec (MXferAck fl xid len) s)). Qed.

Theorem tie_xfer_refuse s reason xid :
  let g := gen_recv_xfer_refuse xid reason (habs s) in
  let r := handle_msg (MXferRefuse reason xid) s in
  snd g = outcome_code (snd r)
  /\ h_in_sess (fst g) = in_sess (fst r) /\ h_in_conn (fst g) = in_conn (fst r)
  /\ h_tx_map (fst g) = tx_map (fst r)
  /\ h_pend_start (fst g) = map (fun it => (fst it, None)) (pend_start (fst r))
  /\ h_pend_ack (fst g) = pend_ack (fst r)
  /\ h_tx_tmp (fst g) = match tx_tmp (fst r) with Some (i, _) => Some i | None => None end
  /\ h_tx_len (fst g) = tx_len (fst r) /\ h_pq (fst g) = pq_set (fst r)
  /\ (exists tail, trace (fst r) = trace s ++ h_events (fst g) ++ tail
                   /\ (tail = [] \/ (tail = [EClosed] /\ h_check (fst g) = true)))
  /\ (h_check (fst g) = false -> closed (fst r) = closed s).
Proof. exact (hm_tie _ _ _ (handle_msg_spec (MXferRefuse reason xid) s)). Qed.

Theorem tie_sess_term s fl reason :
  let g := gen_recv_sess_term reason (habs s) in
  let r := handle_msg (MSessTerm fl reason) s in
  snd g = outcome_code (snd r)
  /\ h_in_sess (fst g) = in_sess (fst r) /\ h_in_conn (fst g) = in_conn (fst r)
  /\ h_tx_map (fst g) = tx_map (fst r)
  /\ h_pend_start (fst g) = map (fun it => (fst it, None)) (pend_start (fst r))
  /\ h_pend_ack (fst g) = pend_ack (fst r)
  /\ h_tx_tmp (fst g) = match tx_tmp (fst r) with Some (i, _) => Some i | None => None end
  /\ h_tx_len (fst g) = tx_len (fst r) /\ h_pq (fst g) = pq_set (fst r)
  /\ (exists t1 tail, trace (fst r) = trace s ++ t1 ++ h_events (fst g) ++ tail
                      /\ (t1 = [] \/ t1 = [ESig SigState [PStr ST_ENDING]])
                      /\ (tail = [] \/ (tail = [EClosed] /\ h_check (fst g) = true)))
  /\ (h_check (fst g) = false -> closed (fst r) = closed s).
Proof. exact (hm_tie _ _ _ (handle_msg_spec (MSessTerm fl reason) s)). Qed.
