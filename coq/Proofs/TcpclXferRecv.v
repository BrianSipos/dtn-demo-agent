(** C01 / C17, receiver side: what an endpoint of [Model/TcpclSess.v] delivers
    is exactly what the specification fold [deliver_spec] computes from the
    frames it acted on, for every operation list and arbitrary received octets. *)
From Coq Require Import ZArith NArith List Bool Lia.
From RecordUpdate Require Import RecordSet.
From DTN Require Import Lib.Bytes Model.TcpclMsg Model.TcpclSess Model.TcpclXferSpec Proofs.TcpclSessBasics
  Proofs.TcpclSessSpec.
Import ListNotations RecordSetNotations.
Local Open Scope N_scope.

(** The events the receiver theorems do not speak of: all but "receive finished"
    signals and pops. *)
Definition quiet (e : event) : bool :=
  match e with
  | ESig SigRecvFinished _ => false
  | EPop _ _ => false
  | _ => true
  end.
Definition loud (e : event) : bool := negb (quiet e).
Definition lt (s : ep) : list event := filter loud (trace s).

Definition rv (s : ep) := (in_sess s, rx_tmp s, handled s, rx_map s, lt s, end_acks (sent s)).

Definition view := (bool * option (N * bytes) * list frame * list (N * bytes) * list event * list (N * N))%type.
Definition v_sess (v : view) := fst (fst (fst (fst (fst v)))).
Definition v_tmp (v : view) := snd (fst (fst (fst (fst v)))).
Definition v_hd (v : view) := snd (fst (fst (fst v))).
Definition v_map (v : view) := snd (fst (fst v)).
Definition v_lt (v : view) := snd (fst v).
Definition v_acks (v : view) := snd v.

(** The view after a message has been handled, as a function of the view before. *)
Definition rv_msg (m : msg) (v : view) : view :=
  match m with
  | MXferSeg fl xid _ data =>
      if v_sess v then
        match rx_accept (v_tmp v) fl xid with
        | None => v
        | Some acc =>
            let d := acc ++ data in
            if has_end fl
            then (v_sess v, None, v_hd v, dict_set xid d (v_map v),
                  v_lt v ++ [ev_rfin xid (N.of_nat (length d))], v_acks v ++ [(xid, N.of_nat (length d))])
            else (v_sess v, Some (xid, d), v_hd v, v_map v, v_lt v, v_acks v)
        end
      else v
  | MSessInit _ _ _ _ _ => (true, v_tmp v, v_hd v, v_map v, v_lt v, v_acks v)
  | _ => v
  end.

Definition rv_frame (fr : frame) (v : view) : view :=
  match fr with FMsg m => rv_msg m v | FContact _ => v end.

Lemma loud_fin_term l : filter loud (map term_ev l) = [].
Proof. induction l as [|it l IH]; [reflexivity|exact IH]. Qed.

(** The view of a state in canonical form: project, decide the conditions the
    trace depends on, filter the appended events. *)
Ltac rv_nf :=
  try reflexivity; ep_unf; unfold rv, rv_msg, rx_accept, lt, end_acks; ep_cbn; cbn [v_sess v_tmp v_hd v_map v_lt v_acks fst snd];
  rw_hyps; repeat brk_any; rewrite ?filter_app, ?flat_map_app, ?loud_fin_term;
  cbn [filter flat_map loud quiet negb end_ack_of app seg_msg si_msg_of ev_rstart ev_rinter ev_rfin ev_sinter ev_sfin];
  rw_hyps; rewrite ?app_nil_r; reflexivity.

(** Closing, flushing and a state change only add events the view ignores. *)
Lemma rv_check' s : rv (check_sess_term' s) = rv s. Proof. rv_nf. Qed.
Lemma rv_close' s : rv (do_close' s) = rv s. Proof. rv_nf. Qed.
Lemma rv_flush' s : rv (flush_pend_start' s) = rv s. Proof. rv_nf. Qed.
Lemma rv_set_state' st s : rv (set_state' st s) = rv s. Proof. rv_nf. Qed.

Ltac rv_leaf :=
  repeat lazymatch goal with
  | |- rv (check_sess_term' _) = _ => rewrite rv_check'
  | |- rv (do_close' _) = _ => rewrite rv_close'
  | |- rv (flush_pend_start' _) = _ => rewrite rv_flush'
  | |- rv (set_state' _ _) = _ => rewrite rv_set_state'
  end; rv_nf.

Lemma rv_recv_frame fr s : rv (fst (recv_frame fr s)) = rv_frame fr (rv s).
Proof. frame_cases fr s; cbn [msg_result fst snd rv_frame]; rv_leaf. Qed.

Definition rx_op (o : op) : bool :=
  match o with ORx _ | OPop _ => true | _ => false end.

Lemma rv_step_other s o : rx_op o = false -> rv (step s o) = rv s.
Proof.
  intros Ho. destruct (closed s) eqn:Hc; [rewrite step_closed by exact Hc; destruct o; reflexivity|].
  destruct (step_spec s o Hc); try discriminate Ho; spec_cases; rv_leaf.
Qed.

Lemma rv_eta s : rv s = (v_sess (rv s), v_tmp (rv s), v_hd (rv s), v_map (rv s), v_lt (rv s), v_acks (rv s)).
Proof. reflexivity. Qed.
Lemma rv_upd_handled v s : rv (s <| handled := v |>) = (v_sess (rv s), v_tmp (rv s), v, v_map (rv s), v_lt (rv s), v_acks (rv s)).
Proof. reflexivity. Qed.
Lemma in_sess_rv s : in_sess s = v_sess (rv s). Proof. reflexivity. Qed.

Lemma dict_get_set {V} k k' (v : V) d :
  dict_get k (dict_set k' v d) = if k' =? k then Some v else dict_get k d.
Proof.
  induction d as [|[a b] d IH]; cbn [dict_set dict_get].
  - destruct (k' =? k); reflexivity.
  - destruct (a =? k') eqn:E1; cbn [dict_get].
    + apply N.eqb_eq in E1. subst a. destruct (N.eqb k' k); reflexivity.
    + rewrite IH. destruct (a =? k) eqn:E2; [|reflexivity].
      apply N.eqb_eq in E2. subst a. rewrite N.eqb_sym, E1. reflexivity.
Qed.

Lemma dict_get_in {V} k (v : V) d : dict_get k d = Some v -> In (k, v) d.
Proof.
  induction d as [|[a b] d IH]; cbn [dict_get]; [discriminate|].
  destruct (a =? k) eqn:E.
  - intros [= ->]. apply N.eqb_eq in E. subst. left. reflexivity.
  - intros H. right. apply IH, H.
Qed.

Lemma dict_set_nodup {V} k (v : V) d : NoDup (map fst d) -> NoDup (map fst (dict_set k v d)).
Proof.
  intros H. rewrite keys_dict_set. unfold mem_N. destruct (existsb (N.eqb k) (map fst d)) eqn:E; [exact H|].
  apply NoDup_snoc; [exact H|].
  intros Hin. assert (existsb (N.eqb k) (map fst d) = true); [|congruence].
  apply existsb_exists. exists k. split; [exact Hin|apply N.eqb_refl].
Qed.

Lemma dict_del_nodup {V} k (d : list (N * V)) : NoDup (map fst d) -> NoDup (map fst (dict_del k d)).
Proof.
  induction d as [|[a b] d IH]; cbn [dict_del map fst]; intros H; [exact H|].
  inversion H as [|? ? Ha Hd]; subst.
  destruct (a =? k); cbn [map fst]; [exact Hd|].
  constructor; [|apply IH, Hd]. intros Hin. apply Ha. rewrite keys_dict_del in Hin. eapply In_remove_N, Hin.
Qed.

Lemma dict_get_del {V} k k' (d : list (N * V)) : NoDup (map fst d) ->
  dict_get k (dict_del k' d) = if N.eqb k' k then None else dict_get k d.
Proof.
  induction d as [|[a b] d IH]; cbn [dict_del dict_get map fst]; intros H.
  - destruct (N.eqb k' k); reflexivity.
  - inversion H as [|? ? Ha Hd]; subst.
    destruct (a =? k') eqn:E1.
    + apply N.eqb_eq in E1. subst a. destruct (N.eqb k' k) eqn:E2; [|reflexivity].
      apply N.eqb_eq in E2. subst k'. apply dict_get_none_keys. exact Ha.
    + cbn [dict_get]. rewrite (IH Hd). destruct (a =? k) eqn:E2; [|reflexivity].
      apply N.eqb_eq in E2. subst a. rewrite N.eqb_sym, E1. reflexivity.
Qed.

Lemma rx_spec_snoc h f : rx_spec (h ++ [f]) = rx_spec_step (rx_spec h) f.
Proof. unfold rx_spec. rewrite fold_left_app. reflexivity. Qed.

(** Deliveries beyond those the trace has signalled do not matter to the store. *)
Lemma rxmap_fold_ext dl x l st : forall k m,
  fold_left (rxmap_step dl) l st = (k, m) -> (k <= length dl)%nat ->
  fold_left (rxmap_step (dl ++ x)) l st = (k, m).
Proof.
  induction l as [|e l IH] using rev_ind; intros k m; [exact (fun H _ => H)|].
  rewrite !fold_left_app. cbn [fold_left]. destruct (fold_left (rxmap_step dl) l st) as [k' m'].
  intros H L.
  assert (E : rxmap_step (dl ++ x) (k', m') e = rxmap_step dl (k', m') e /\ (k' <= k)%nat).
  { destruct e as [[] args| | | |]; cbn [rxmap_step fst snd] in H |- *; try (injection H as <- _; split; [reflexivity|lia]).
    rewrite nth_error_app1; [split; [reflexivity|]|]; destruct (nth_error dl k') as [[]|]; injection H as <- _; lia. }
  destruct E as [E K]. rewrite (IH k' m' eq_refl), E by lia. exact H.
Qed.

Definition store_ok (dl m : list (N * bytes)) : Prop := Forall (fun p => In p dl) m /\ NoDup (map fst m).

Lemma rxmap_fold_ok dl tr : forall st, store_ok dl (snd st) -> store_ok dl (snd (fold_left (rxmap_step dl) tr st)).
Proof.
  induction tr as [|e tr IH]; intros st [F N]; [split; assumption|]. apply IH.
  destruct e as [[] args| |id d| |]; cbn [rxmap_step]; try (split; assumption).
  - destruct (nth_error dl (fst st)) as [[i d]|] eqn:E; [|split; assumption].
    split; [apply dict_set_Forall; [exact (nth_error_In _ _ E)|exact F]|apply dict_set_nodup, N].
  - split; [apply dict_del_Forall, F|apply dict_del_nodup, N].
Qed.

Lemma rxmap_spec_ok dl tr : store_ok dl (rxmap_spec tr dl).
Proof. apply rxmap_fold_ok. split; constructor. Qed.

Lemma rxmap_stored dl tr n m : fold_left (rxmap_step dl) tr (O, []) = (n, m) ->
  (forall id d, dict_get id m = Some d -> In (id, d) dl) /\ NoDup (map fst m).
Proof.
  intros E. destruct (rxmap_spec_ok dl tr) as [F N]. unfold rxmap_spec in F, N. rewrite E in F, N.
  split; [intros id d; apply (dict_get_Forall _ _ _ _ F)|exact N].
Qed.

(** ** The invariant, over the view

    Against the state [st] of the specification fold over the frames acted on:
    session flag and open transfer agree; the "receive finished" signals,
    and (last conjunct) the final acknowledgements sent, are the deliveries;
    every pop returned a delivery; the store is the trace replayed over the
    deliveries, holds only deliveries, and has no key twice. *)
Definition RinvS (st : rxspec) (v : view) : Prop :=
  v_sess v = sp_sess st /\ v_tmp v = sp_cur st /\
  recv_finished_events (v_lt v) = map dlen (sp_out st) /\
  (forall id d, In (id, d) (pop_events (v_lt v)) -> In (id, d) (sp_out st)) /\
  fold_left (rxmap_step (sp_out st)) (v_lt v) (O, []) = (length (sp_out st), v_map v) /\
  (forall id d, dict_get id (v_map v) = Some d -> In (id, d) (sp_out st)) /\
  NoDup (map fst (v_map v)) /\
  v_acks v = map dlen (sp_out st).

Definition Rinv (s : ep) : Prop := RinvS (rx_spec (handled s)) (rv s).

Lemma RinvS_hd st a b c d e f c' : RinvS st (a, b, c, d, e, f) -> RinvS st (a, b, c', d, e, f).
Proof. exact (fun H => H). Qed.

Lemma RinvS_deliver sess cur out v xid d :
  RinvS (sess, cur, out) v ->
  RinvS (sess, None, out ++ [(xid, d)])
        (sess, None, v_hd v, dict_set xid d (v_map v),
         v_lt v ++ [ev_rfin xid (N.of_nat (length d))],
         v_acks v ++ [(xid, N.of_nat (length d))]).
Proof.
  intros (H1 & H2 & H3 & H4 & H5 & _ & _ & H8).
  unfold RinvS, sp_sess, sp_cur, sp_out in *. cbn [fst snd v_sess v_tmp v_hd v_map v_lt v_acks] in *.
  assert (H5' : fold_left (rxmap_step (out ++ [(xid, d)])) (v_lt v ++ [ev_rfin xid (N.of_nat (length d))]) (O, [])
                = (length (out ++ [(xid, d)]), dict_set xid d (v_map v))).
  { rewrite fold_left_app, (rxmap_fold_ext out [(xid, d)] _ _ _ _ H5) by lia.
    cbn [fold_left rxmap_step ev_rfin fst snd]. rewrite nth_error_app2, Nat.sub_diag, app_length by lia.
    cbn [nth_error length]. f_equal. lia. }
  destruct (rxmap_stored _ _ _ _ H5') as [H6 H7]. repeat split; try assumption.
  - unfold recv_finished_events in *. rewrite flat_map_app, H3, map_app. reflexivity.
  - intros id d'. unfold pop_events. rewrite flat_map_app. cbn [flat_map]. rewrite app_nil_r.
    intros Hin. apply in_or_app. left. apply H4, Hin.
  - rewrite H8, map_app. reflexivity.
Qed.

Lemma RinvS_pop st v id d :
  RinvS st v -> dict_get id (v_map v) = Some d ->
  RinvS st (v_sess v, v_tmp v, v_hd v, dict_del id (v_map v), v_lt v ++ [EPop id d], v_acks v).
Proof.
  intros (H1 & H2 & H3 & H4 & H5 & H6 & _ & H8) Hg.
  unfold RinvS in *. cbn [fst snd v_sess v_tmp v_hd v_map v_lt v_acks] in *.
  assert (H5' : fold_left (rxmap_step (sp_out st)) (v_lt v ++ [EPop id d]) (O, []) = (length (sp_out st), dict_del id (v_map v)))
    by (rewrite fold_left_app, H5; reflexivity).
  destruct (rxmap_stored _ _ _ _ H5') as [H6' H7']. repeat split; try assumption.
  - unfold recv_finished_events in *. rewrite flat_map_app. cbn [flat_map]. rewrite !app_nil_r. exact H3.
  - intros i d'. unfold pop_events. rewrite flat_map_app. cbn [flat_map]. rewrite app_nil_r.
    intros Hin. apply in_app_or in Hin. destruct Hin as [Hin|[Hin|[]]]; [apply H4, Hin|].
    injection Hin as <- <-. apply H6, Hg.
Qed.

Lemma RinvS_frame st v fr : RinvS st v -> RinvS (rx_spec_step st fr) (rv_frame fr v).
Proof.
  destruct st as [[sess cur] out]. intros HR. pose proof HR as (H1 & H2 & HR').
  cbn [sp_sess sp_cur fst snd] in H1, H2.
  destruct fr as [c|[fl xid ext data|fl xid len|r xid| |fl r|ri r|ka smru xmru nid ext]]; try exact HR;
    cbn [rx_spec_step rv_frame rv_msg].
  - rewrite H1, H2. destruct sess; [|exact HR]. destruct (rx_accept cur fl xid) as [acc|]; [|exact HR].
    cbv zeta. destruct (has_end fl).
    + exact (RinvS_deliver _ _ _ _ xid (acc ++ data) HR).
    + split; [reflexivity|]. split; [reflexivity|exact HR'].
  - split; [reflexivity|]. split; [exact H2|exact HR'].
Qed.

Lemma Rinv_recv_frame fr s rest :
  Rinv s -> Rinv (fst (recv_frame fr (rx_taken fr rest s))).
Proof.
  intros HR. unfold Rinv. destruct (frame_keeps fr (rx_taken fr rest s)) as (_ & -> & _).
  rewrite rv_recv_frame. cbn [rx_taken handled set]. rewrite rx_spec_snoc. apply RinvS_frame. exact HR.
Qed.

Lemma Rinv_rv s s' : rv s' = rv s -> Rinv s -> Rinv s'.
Proof.
  intros E H. unfold Rinv. rewrite E.
  replace (handled s') with (handled s); [exact H|].
  change (v_hd (rv s) = v_hd (rv s')). rewrite E. reflexivity.
Qed.

Lemma rv_pop s id d : rv (emit (EPop id d) (s <| rx_map := dict_del id (rx_map s) |>))
  = (v_sess (rv s), v_tmp (rv s), v_hd (rv s), dict_del id (v_map (rv s)), v_lt (rv s) ++ [EPop id d], v_acks (rv s)).
Proof. rv_leaf. Qed.

Lemma Rinv_step s o : Rinv s -> Rinv (step s o).
Proof.
  intros HR. apply (step_ind_at Rinv Rinv); [exact HR| | | | |auto|].
  - intros dt. apply (Rinv_rv s); [rv_leaf|exact HR].
  - intros Hc Ho. destruct (rx_op o) eqn:Eo; [|apply (Rinv_rv s); [apply rv_step_other, Eo|exact HR]].
    destruct o; try discriminate Eo; try discriminate Ho. unfold step. rewrite Hc.
    destruct (dict_get id (rx_map s)) as [data|] eqn:G.
    + unfold Rinv. rewrite rv_pop. exact (RinvS_pop _ (rv s) id data HR G).
    + apply (Rinv_rv s); [rv_leaf|exact HR].
  - intros data _ _. apply (Rinv_rv s); [unfold rx_begin; rv_leaf|exact HR].
  - intros s0 fr rest H0 _ _. apply Rinv_recv_frame, H0.
  - intros s' k H0. apply (Rinv_rv s'); [unfold exc; rv_leaf|exact H0].
Qed.

Lemma Rinv_init c : Rinv (init c).
Proof.
  unfold Rinv, RinvS. cbn. repeat split; try reflexivity; try (constructor; fail); intros; try contradiction; discriminate.
Qed.

Theorem Rinv_run c ops : Rinv (run c ops).
Proof. apply run_invariant; [apply Rinv_init|intros s o; apply Rinv_step]. Qed.

Lemma flat_map_loud {B} (f : event -> list B) tr :
  (forall e, loud e = false -> f e = []) -> flat_map f (filter loud tr) = flat_map f tr.
Proof.
  intros Hq. induction tr as [|e tr IH]; [reflexivity|]. cbn [filter flat_map].
  destruct (loud e) eqn:L; cbn [flat_map]; rewrite IH; [reflexivity|]. rewrite (Hq e L). reflexivity.
Qed.

Lemma rfe_filter tr : recv_finished_events (filter loud tr) = recv_finished_events tr.
Proof. apply flat_map_loud. intros [[] args| | | |] L; try discriminate L; reflexivity. Qed.

Lemma pop_filter tr : pop_events (filter loud tr) = pop_events tr.
Proof. apply flat_map_loud. intros [[] args| | | |] L; try discriminate L; reflexivity. Qed.

Lemma rxmap_filter dl tr : forall st,
  fold_left (rxmap_step dl) (filter loud tr) st = fold_left (rxmap_step dl) tr st.
Proof.
  induction tr as [|e tr IH]; intros st; [reflexivity|]. cbn [filter fold_left].
  destruct (loud e) eqn:L; cbn [fold_left]; rewrite IH; [reflexivity|].
  destruct e as [sg args| | | |]; try destruct sg; try discriminate L; reflexivity.
Qed.

Lemma pop_events_in id d tr : In (EPop id d) tr <-> In (id, d) (pop_events tr).
Proof.
  unfold pop_events. rewrite in_flat_map. split.
  - intros H. exists (EPop id d). split; [exact H|left; reflexivity].
  - intros [e [H1 H2]]. destruct e; try contradiction. destruct H2 as [[= -> ->]|[]]. exact H1.
Qed.

Section Receiver.
  Variable c : cfg.
  Variable ops : list op.
  Let s := run c ops.

  (** The "receive finished" signals are exactly the specified deliveries, in order. *)
  Theorem recv_finished_spec :
    recv_finished_events (trace s) = map dlen (deliver_spec (handled s)).
  Proof. rewrite <- rfe_filter. apply (Rinv_run c ops). Qed.

  (** The session flag and the transfer being received are the specified ones. *)
  Theorem rx_state_spec :
    in_sess s = sp_sess (rx_spec (handled s)) /\ rx_tmp s = sp_cur (rx_spec (handled s)).
  Proof. split; apply (Rinv_run c ops). Qed.

  (** What is stored is what was delivered minus what was popped. *)
  Theorem rx_map_exact : rx_map s = rxmap_spec (trace s) (deliver_spec (handled s)).
  Proof.
    destruct (Rinv_run c ops) as (_ & _ & _ & _ & H & _).
    unfold rxmap_spec. rewrite <- rxmap_filter. exact (eq_sym (f_equal snd H)).
  Qed.

  Theorem rx_map_delivered id d :
    dict_get id (rx_map s) = Some d -> In (id, d) (deliver_spec (handled s)).
  Proof. rewrite rx_map_exact. apply (dict_get_Forall (fun p => In p _)), rxmap_spec_ok. Qed.

  Theorem rx_map_nodup : NoDup (map fst (rx_map s)).
  Proof. rewrite rx_map_exact. apply rxmap_spec_ok. Qed.

  (** The END-flagged XFER_ACKs sent are exactly the deliveries, in order
      (one final acknowledgement per delivered transfer, carrying its length). *)
  Theorem end_acks_spec : end_acks (sent s) = map dlen (deliver_spec (handled s)).
  Proof. apply (Rinv_run c ops). Qed.

  (** Every pop returned a delivered bundle. *)
  Theorem pop_delivered id d :
    In (EPop id d) (trace s) -> In (id, d) (deliver_spec (handled s)).
  Proof.
    intros Hin. apply pop_events_in in Hin. rewrite <- pop_filter in Hin.
    destruct (Rinv_run c ops) as (_ & _ & _ & H & _). exact (H _ _ Hin).
  Qed.

  (** A pop removes the bundle: popping the same id again at once raises KeyError. *)
  Theorem pop_removes id : closed s = false -> dict_get id (rx_map (step s (OPop id))) = None.
  Proof.
    intros Cl. unfold step. rewrite Cl.
    destruct (dict_get id (rx_map s)) as [data|] eqn:G.
    - change (dict_get id (dict_del id (rx_map s)) = None).
      rewrite dict_get_del by apply rx_map_nodup. rewrite N.eqb_refl. reflexivity.
    - exact G.
  Qed.

  Theorem pop_twice id : closed s = false ->
    trace (step (step s (OPop id)) (OPop id)) = trace (step s (OPop id)) ++ [EExc EX_KEY].
  Proof.
    intros Cl. pose proof (pop_removes id Cl) as G.
    assert (Cl' : closed (step s (OPop id)) = false).
    { unfold step. rewrite Cl. destruct (dict_get id (rx_map s)); exact Cl. }
    generalize dependent (step s (OPop id)). intros s1 G Cl'.
    unfold step. rewrite Cl', G. reflexivity.
  Qed.
End Receiver.

(** At the moment a transfer is delivered the store maps its id to its data. *)
Lemma delivery_stored fl xid ext data s acc :
  in_sess s = true -> rx_accept (rx_tmp s) fl xid = Some acc -> has_end fl = true ->
  dict_get xid (rx_map (fst (recv_frame (FMsg (MXferSeg fl xid ext data)) s))) = Some (acc ++ data).
Proof.
  intros H1 H2 H3.
  change (dict_get xid (v_map (rv (fst (recv_frame (FMsg (MXferSeg fl xid ext data)) s)))) = Some (acc ++ data)).
  rewrite rv_recv_frame. cbn [rv_frame rv_msg]. change (v_sess (rv s)) with (in_sess s). change (v_tmp (rv s)) with (rx_tmp s).
  rewrite H1, H2, H3. cbn [v_map fst snd].
  rewrite dict_get_set, N.eqb_refl. reflexivity.
Qed.

(** ** No delivery mixes transfers (C17) *)

(** Transfer [xid] is open after [h] with [acc] received: a START segment of
    [xid] without END, then no START and no END of [xid]; [acc] is what those
    frames carry for [xid]. *)
Definition open_at (h : list frame) (xid : N) (acc : bytes) : Prop :=
  exists pre fl0 e0 d0 mid,
    h = pre ++ FMsg (MXferSeg fl0 xid e0 d0) :: mid /\
    has_start fl0 = true /\ has_end fl0 = false /\
    Forall (fun f => is_start f = false) mid /\
    Forall (fun f => is_end_of xid f = false) mid /\
    acc = d0 ++ concat (map (contrib xid) mid).

(** [d] was delivered for [xid] somewhere in [h]: a START segment of [xid], no
    START after it up to the END segment of [xid] (or START and END in one);
    [d] is what exactly those frames carry for [xid]. *)
Definition delivered_at (h : list frame) (xid : N) (d : bytes) : Prop :=
  exists pre fl0 e0 d0 mid post,
    h = pre ++ FMsg (MXferSeg fl0 xid e0 d0) :: mid ++ post /\
    has_start fl0 = true /\
    Forall (fun f => is_start f = false) mid /\
    d = d0 ++ concat (map (contrib xid) mid) /\
    ((has_end fl0 = true /\ mid = []) \/
     (has_end fl0 = false /\
      exists mid' fle ee de, mid = mid' ++ [FMsg (MXferSeg fle xid ee de)] /\ has_end fle = true /\
                             Forall (fun f => is_end_of xid f = false) mid')).

(** No mixing, after [h]: the open transfer and every delivery of the
    specification fold are as [open_at] and [delivered_at] say. *)
Definition NM (h : list frame) : Prop :=
  let st := rx_spec h in
  (forall xid acc, snd (fst st) = Some (xid, acc) -> fst (fst st) = true /\ open_at h xid acc) /\
  (forall xid d, In (xid, d) (snd st) -> delivered_at h xid d).

Lemma delivered_at_snoc h f xid d : delivered_at h xid d -> delivered_at (h ++ [f]) xid d.
Proof.
  intros (pre & fl0 & e0 & d0 & mid & post & E & H). exists pre, fl0, e0, d0, mid, (post ++ [f]).
  split; [|exact H]. rewrite E. rewrite <- !app_assoc. cbn [app]. rewrite <- !app_assoc. reflexivity.
Qed.

Lemma open_at_snoc h f xid acc :
  open_at h xid acc -> is_start f = false -> is_end_of xid f = false ->
  open_at (h ++ [f]) xid (acc ++ contrib xid f).
Proof.
  intros (pre & fl0 & e0 & d0 & mid & E & H1 & H2 & H3 & H4 & H5) Hs He.
  exists pre, fl0, e0, d0, (mid ++ [f]). repeat split; try assumption.
  - rewrite E, <- app_assoc. reflexivity.
  - apply Forall_app. split; [exact H3|]. constructor; [exact Hs|constructor].
  - apply Forall_app. split; [exact H4|]. constructor; [exact He|constructor].
  - rewrite H5, map_app, concat_app. cbn [map concat]. rewrite app_nil_r, app_assoc. reflexivity.
Qed.

Lemma open_at_deliver h xid acc fl e d :
  open_at h xid acc -> has_start fl = false -> has_end fl = true ->
  delivered_at (h ++ [FMsg (MXferSeg fl xid e d)]) xid (acc ++ d).
Proof.
  intros (pre & fl0 & e0 & d0 & mid & E & H1 & H2 & H3 & H4 & H5) Hs He.
  exists pre, fl0, e0, d0, (mid ++ [FMsg (MXferSeg fl xid e d)]), []. repeat split.
  - rewrite E, app_nil_r, <- app_assoc. reflexivity.
  - exact H1.
  - apply Forall_app. split; [exact H3|]. constructor; [exact Hs|constructor].
  - rewrite H5, map_app, concat_app. cbn [map concat contrib]. rewrite N.eqb_refl, app_nil_r, app_assoc. reflexivity.
  - right. split; [exact H2|]. exists mid, fl, e, d. repeat split; assumption.
Qed.

Lemma NM_all h : NM h.
Proof.
  induction h as [|f h IH] using rev_ind.
  - split; cbn; intros; [discriminate|contradiction].
  - unfold NM in *. rewrite rx_spec_snoc. destruct (rx_spec h) as [[sess cur] out].
    cbn [fst snd] in IH. destruct IH as [IH1 IH2].
    assert (Same : (forall xid acc, cur = Some (xid, acc) -> is_start f = false /\ is_end_of xid f = false /\ contrib xid f = []) ->
                   (forall xid acc, cur = Some (xid, acc) -> sess = true /\ open_at (h ++ [f]) xid acc) /\
                   (forall xid d, In (xid, d) out -> delivered_at (h ++ [f]) xid d)).
    { intros Hq. split.
      - intros xid acc Hc. destruct (IH1 _ _ Hc) as [Hs Ho]. split; [exact Hs|].
        destruct (Hq _ _ Hc) as (Q1 & Q2 & Q3). rewrite <- (app_nil_r acc), <- Q3. apply open_at_snoc; assumption.
      - intros xid d Hin. apply delivered_at_snoc, IH2, Hin. }
    destruct f as [c|m]; [apply Same; intros; repeat split; reflexivity|].
    destruct m as [fl xid ext data|fl xid len|r xid| |fl r|ri r|ka smru xmru nid ext];
      try (apply Same; intros; repeat split; reflexivity).
    + cbn [rx_spec_step]. destruct sess.
      2:{ apply Same. intros x a Hc. destruct (IH1 _ _ Hc) as [Hs _]. discriminate Hs. }
      unfold rx_accept. destruct (has_start fl) eqn:St.
      * destruct (has_end fl) eqn:En; cbn [fst snd].
        -- split; [intros; discriminate|]. intros x d Hin. apply in_app_or in Hin.
           destruct Hin as [Hin|[[= <- <-]|[]]]; [apply delivered_at_snoc, IH2, Hin|].
           exists h, fl, ext, data, [], [].
           split; [reflexivity|]. split; [exact St|]. split; [constructor|].
           split; [cbn; rewrite app_nil_r; reflexivity|]. left. split; [exact En|reflexivity].
        -- split; [|intros x d Hin; apply delivered_at_snoc, IH2, Hin].
           intros x a [= <- <-]. split; [reflexivity|].
           exists h, fl, ext, data, [].
           split; [reflexivity|]. split; [exact St|]. split; [exact En|]. split; [constructor|].
           split; [constructor|]. cbn. rewrite app_nil_r. reflexivity.
      * destruct cur as [[cid acc]|].
        2:{ apply Same. intros; discriminate. }
        destruct (cid =? xid) eqn:Ec.
        -- apply N.eqb_eq in Ec. subst cid. destruct (IH1 _ _ eq_refl) as [_ Ho].
           destruct (has_end fl) eqn:En; cbn [fst snd].
           ++ split; [intros; discriminate|]. intros x d Hin. apply in_app_or in Hin.
              destruct Hin as [Hin|[[= <- <-]|[]]]; [apply delivered_at_snoc, IH2, Hin|].
              apply open_at_deliver; assumption.
           ++ split; [|intros x d Hin; apply delivered_at_snoc, IH2, Hin].
              intros x a [= <- <-]. split; [reflexivity|].
              replace data with (contrib xid (FMsg (MXferSeg fl xid ext data))) at 2
                by (cbn [contrib]; rewrite N.eqb_refl; reflexivity).
              apply open_at_snoc; [exact Ho|exact St|]. cbn [is_end_of]. rewrite En. reflexivity.
        -- apply Same. intros x a [= -> ->]. cbn [is_start is_end_of contrib].
           rewrite St, (N.eqb_sym xid x), Ec, andb_false_r. repeat split; reflexivity.
    + cbn [rx_spec_step fst snd]. split.
      * intros x a Hc. split; [reflexivity|]. destruct (IH1 _ _ Hc) as [_ Ho].
        replace a with (a ++ contrib x (FMsg (MSessInit ka smru xmru nid ext))) by (cbn [contrib]; apply app_nil_r).
        apply open_at_snoc; [exact Ho|reflexivity|reflexivity].
      * intros x d Hin. apply delivered_at_snoc, IH2, Hin.
Qed.

Theorem no_mixed_delivery h xid d : In (xid, d) (deliver_spec h) -> delivered_at h xid d.
Proof. intros H. apply (proj2 (NM_all h)), H. Qed.
