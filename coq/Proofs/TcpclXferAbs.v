(** C01 / C04, sender side: an abstract transition system over the
    few fields of an endpoint that matter to the transfer layer, and the proof
    that every operation of [Model/TcpclSess.v] is a finite sequence of
    abstract transitions.  The invariants are proved on the abstract system
    (Proofs/TcpclXferSend.v). *)
From Coq Require Import ZArith NArith List Bool Lia ZifyBool ZifyN ZifyNat.
From RecordUpdate Require Import RecordSet.
From DTN Require Import Lib.Bytes Model.TcpclMsg Model.TcpclSess Model.TcpclXferSpec Proofs.TcpclSessBasics Proofs.TcpclSessSpec.
Import ListNotations RecordSetNotations.
Local Open Scope N_scope.

(** Successful "send finished" signals: (id, acknowledged length). *)
Definition succ_of (e : event) : list (N * N) :=
  match e with
  | ESig SigSendFinished [PStrNum id; PInt len; PStr r] => if r =? RES_SUCCESS then [(id, len)] else []
  | _ => []
  end.
Definition succ_events (tr : list event) : list (N * N) := flat_map succ_of tr.

(** ** The abstract state *)
Record av := mkAv {
  a_q : list bytes;             (* ghost: bundles queued so far *)
  a_pas : bool;                 (* passive side *)
  a_cl : bool;                  (* closed *)
  a_ic : bool; a_is : bool; a_it : bool;   (* in_conn, in_sess, in_term *)
  a_nid : N;                    (* next_id *)
  a_ps : list (N * bytes);      (* pend_start *)
  a_tt : option (N * bytes);    (* tx_tmp *)
  a_tl : N;                     (* tx_len *)
  a_hd : list frame;            (* handled *)
  a_sn : list frame;            (* sent *)
  a_sc : list (N * N);          (* successful "send finished" signals *)
  a_ids : list N;               (* ids returned by send_bundle_data *)
  a_ev : list event             (* "send started" and "finished: terminating" signals *)
}.

#[export] Instance eta_av : Settable _ := settable! mkAv
  <a_q; a_pas; a_cl; a_ic; a_is; a_it; a_nid; a_ps; a_tt; a_tl; a_hd; a_sn; a_sc; a_ids; a_ev>.

Definition sv (q : list bytes) (s : ep) : av :=
  mkAv q (c_passive (cf s)) (closed s) (in_conn s) (in_sess s) (in_term s) (next_id s)
       (pend_start s) (tx_tmp s) (tx_len s) (handled s) (sent s)
       (succ_events (trace s)) (send_ids (trace s)) (filter note (trace s)).

(** The segment produced by one pass of [_process_queue] with segment size [k]. *)
Definition next_seg (id : N) (data : bytes) (tl : N) (k : nat) : bytes :=
  firstn k (skipn (N.to_nat tl) data).
Definition seg_flags (tl newlen total : N) : N :=
  (if tl =? 0 then FLAG_START else 0) + (if newlen =? total then FLAG_END else 0).

Inductive astep : av -> av -> Prop :=
| A_send v f : seg_of_frame f = [] -> is_refuse f = false ->
    astep v (v <| a_sn := a_sn v ++ [f] |>)
| A_close v : astep v (v <| a_ev := a_ev v ++ map term_ev (a_ps v) |> <| a_ps := [] |> <| a_cl := true |>)   (* a close drops the transfers not yet started *)
| A_handle v f : a_cl v = false -> astep v (v <| a_hd := a_hd v ++ [f] |>)
| A_conn v : a_pas v = true \/ a_cl v = true \/ existsb is_sess_init (a_sn v) = true ->
    astep v (v <| a_ic := true |>)
| A_sess v : a_cl v = false -> a_ic v = true ->
    (a_pas v = true -> existsb is_sess_init (a_sn v) = true) ->
    astep v (v <| a_is := true |>)
| A_term v : astep v (v <| a_it := true |>)
| A_queue v d : a_cl v = false ->
    astep v (v <| a_q := a_q v ++ [d] |> <| a_nid := a_nid v + 1 |>
               <| a_ps := a_ps v ++ [(a_nid v, d)] |> <| a_ids := a_ids v ++ [a_nid v] |>)
| A_flush v : a_it v = true -> astep v (v <| a_ev := a_ev v ++ map term_ev (a_ps v) |> <| a_ps := [] |>)
| A_refuse_ps v r xid : In (FMsg (MXferRefuse r xid)) (a_hd v) ->
    astep v (v <| a_ps := dict_del xid (a_ps v) |>)
| A_refuse_cur v r xid data : In (FMsg (MXferRefuse r xid)) (a_hd v) -> a_tt v = Some (xid, data) ->
    astep v (v <| a_tt := None |> <| a_tl := 0 |>)
| A_start v id data rest : a_tt v = None -> a_is v = true -> a_it v = false ->
    a_ps v = (id, data) :: rest -> a_cl v = false ->
    astep v (v <| a_ps := rest |> <| a_tt := Some (id, data) |> <| a_tl := 0 |>
               <| a_ev := a_ev v ++ [started_ev id (N.of_nat (length data))] |>)
| A_seg v id data k :
    a_tt v = Some (id, data) ->
    (a_tl v =? N.of_nat (length data)) && (0 <? a_tl v) = false ->
    let total := N.of_nat (length data) in
    let seg := next_seg id data (a_tl v) k in
    let newlen := a_tl v + N.of_nat (length seg) in
    let m := MXferSeg (seg_flags (a_tl v) newlen total) id
                      (if a_tl v =? 0 then total_length_ext total else []) seg in
    astep v (if newlen =? total
             then v <| a_sn := a_sn v ++ [FMsg m] |> <| a_tt := None |> <| a_tl := 0 |>
             else v <| a_sn := a_sn v ++ [FMsg m] |> <| a_tl := newlen |>)
| A_succ v fl id len : In (FMsg (MXferAck fl id len)) (a_hd v) -> has_end fl = true ->
    astep v (v <| a_sc := a_sc v ++ [(id, len)] |>).

Inductive asteps : av -> av -> Prop :=
| AS_refl v : asteps v v
| AS_step v1 v2 v3 : asteps v1 v2 -> astep v2 v3 -> asteps v1 v3.

Lemma asteps_trans v1 v2 v3 : asteps v1 v2 -> asteps v2 v3 -> asteps v1 v3.
Proof. intros H1 H2. induction H2; [exact H1|]. eapply AS_step; [apply IHasteps, H1|eassumption]. Qed.

Lemma asteps_one v1 v2 : astep v1 v2 -> asteps v1 v2.
Proof. intros H. eapply AS_step; [apply AS_refl|exact H]. Qed.

Lemma asteps_eq v1 v2 : v1 = v2 -> asteps v1 v2.
Proof. intros ->. apply AS_refl. Qed.

(** An invariant of the abstract system holds after any sequence of steps. *)
Lemma asteps_invariant (P : av -> Prop) :
  (forall v v', P v -> astep v v' -> P v') -> forall v v', asteps v v' -> P v -> P v'.
Proof. intros Hs v v' H. induction H; intros Hv; [exact Hv|]. eapply Hs; [apply IHasteps, Hv|eassumption]. Qed.

Lemma asteps_cons v1 v2 v3 : astep v1 v2 -> asteps v2 v3 -> asteps v1 v3.
Proof. intros H. apply asteps_trans, asteps_one, H. Qed.

Lemma av_ev_ext (v : av) l1 l2 : l1 = l2 -> v <| a_ev := l1 |> = v <| a_ev := l2 |>.
Proof. intros ->. reflexivity. Qed.

(** ** The view of a state in canonical form *)
Lemma succ_fin_term l : flat_map succ_of (map term_ev l) = [].
Proof. induction l as [|it l IH]; [reflexivity|exact IH]. Qed.
Lemma ids_fin_term l : send_ids (map term_ev l) = [].
Proof. induction l as [|it l IH]; [reflexivity|exact IH]. Qed.
Lemma note_fin_term l : filter note (map term_ev l) = map term_ev l.
Proof. induction l as [|it l IH]; [reflexivity|]. cbn [map filter]. change (note (term_ev it)) with true. cbv iota. rewrite IH. reflexivity. Qed.

Lemma succ_refused id ack reason : succ_of (ev_sfin id ack (RES_REFUSED reason)) = [].
Proof.
  cbn [succ_of ev_sfin]. destruct (RES_REFUSED reason =? RES_SUCCESS) eqn:E; [|reflexivity].
  apply N.eqb_eq in E. unfold RES_REFUSED, RES_SUCCESS in E. lia.
Qed.
Lemma note_refused id ack reason : note (ev_sfin id ack (RES_REFUSED reason)) = false.
Proof. cbn [note ev_sfin]. apply N.eqb_neq. unfold RES_REFUSED, RES_TERMINATING. lia. Qed.

(** Normal form of the views in the goal: project, decide the conditions,
    distribute over appended events. *)
Ltac sv_nf :=
  unfold sv, succ_events; ep_cbn; rw_hyps;
  repeat match goal with |- context [if ?c then _ else _] => destruct c eqn:? end;
  unfold send_ids; rewrite ?flat_map_app, ?filter_app; fold send_ids; cbn [flat_map filter app];
  rewrite ?succ_fin_term, ?ids_fin_term, ?note_fin_term, ?succ_refused, ?note_refused;
  cbn [succ_of note send_ids ev_rstart ev_rinter ev_rfin ev_sinter ev_sfin app N.eqb Pos.eqb RES_SUCCESS RES_TERMINATING];
  rewrite ?app_nil_r.

(** [a_then c]: take the abstract step [c] from the state on the left; its side
    conditions are facts of the case ([a_side]). *)
Ltac a_side := cbn; first [reflexivity | assumption | discriminate | intros _; rewrite existsb_app; apply orb_true_r].
Tactic Notation "a_then" uconstr(c) :=
  eapply asteps_cons; [apply c; a_side|cbn [set a_q a_pas a_cl a_ic a_is a_it a_nid a_ps a_tt a_tl a_hd a_sn a_sc a_ids a_ev]].

Lemma as_send' q f s : seg_of_frame f = [] -> is_refuse f = false -> asteps (sv q s) (sv q (send_frame' f s)).
Proof. intros H1 H2. apply asteps_one. exact (A_send (sv q s) f H1 H2). Qed.

Lemma as_close' q s : asteps (sv q s) (sv q (do_close' s)).
Proof. destruct (closed s) eqn:Hc; sv_nf; [apply AS_refl|apply asteps_one, A_close]. Qed.

Lemma as_check' q s : asteps (sv q s) (sv q (check_sess_term' s)).
Proof.
  destruct (cst s) eqn:Hk; [|sv_nf; apply AS_refl].
  (* terminating and idle: nothing is left in [pend_start] *)
  destruct (closed s) eqn:Hc; sv_nf; [apply AS_refl|].
  rewrite (cst6_pend _ _ _ _ _ _ _ Hk). apply asteps_one. eapply eq_ind; [apply A_close|]. cbn. rewrite app_nil_r. reflexivity.
Qed.

Lemma as_flush' q s : in_term s = true -> asteps (sv q s) (sv q (flush_pend_start' s)).
Proof. intros Ht. sv_nf. apply asteps_one, A_flush. reflexivity. Qed.

Lemma sv_set_state' q st s : sv q (set_state' st s) = sv q s.
Proof. sv_nf; reflexivity. Qed.

(** Peeling the state on the right from the outside: updates of fields outside
    the view, and the canonical forms that are abstract steps by themselves. *)
Ltac as_peel :=
  repeat lazymatch goal with
  | |- asteps _ (sv ?q (set ?f ?g ?x)) =>
      lazymatch x with
      | context [do_close'] => idtac | context [check_sess_term'] => idtac | context [send_frame'] => idtac
      | context [flush_pend_start'] => idtac | context [send_next] => idtac
      end;
      lazymatch f with
      | cf => fail | closed => fail | in_conn => fail | in_sess => fail | in_term => fail | next_id => fail
      | pend_start => fail | tx_tmp => fail | tx_len => fail | handled => fail | sent => fail | trace => fail
      | _ => let H := fresh in
             assert (H : forall y, sv q (set f g y) = sv q y) by (intro; reflexivity); rewrite (H x); clear H
      end
  | |- asteps _ (sv _ (set_state' _ _)) => rewrite sv_set_state'
  | |- asteps _ (sv _ (check_sess_term' _)) => eapply asteps_trans; [|apply as_check']
  | |- asteps _ (sv _ (do_close' _)) => eapply asteps_trans; [|apply as_close']
  | |- asteps _ (sv _ (send_frame' _ _)) => eapply asteps_trans; [|apply as_send'; reflexivity]
  | |- asteps _ (sv _ (flush_pend_start' _)) => eapply asteps_trans; [|apply as_flush'; ep_cbn; a_side]
  end.
(** The state abbreviations of the specifications, opened for [as_peel]. *)
Ltac as_open := unfold sent_si, sent_ch, seg_acked, rx_started, exc, tx_pull, pump_done, pq_done, merged, term_sent, pq_trigger'.

Lemma as_recv_msg q m s : closed s = false -> in_conn s = true -> In (FMsg m) (handled s) ->
  asteps (sv q s) (sv q (fst (recv_frame (FMsg m) s))).
Proof.
  intros Cl Ic Hin. rewrite recv_msg_pr. destruct (handle_msg_spec m s); spec_cases; unfold msg_result; cbn [fst snd];
    try apply AS_refl; as_open; as_peel; try apply AS_refl; try solve [sv_nf; apply AS_refl].
  (* what is left changes a field of the view; in the order of [hm_spec] *)
  1,2: (* SESS_INIT, passive *) sv_nf; a_then (A_send _ (FMsg (si_msg_of (cf s)))); a_then A_sess; apply AS_refl.
  1-3: (* SESS_INIT, active *) sv_nf; a_then A_sess; apply AS_refl.
  - (* SESS_TERM answered *) sv_nf. apply asteps_one, A_term.
  - (* first segment, END *) sv_nf. apply asteps_one, A_send; reflexivity.
  - (* first segment *) sv_nf. apply asteps_one, A_send; reflexivity.
  - (* later segment, END *) sv_nf. apply asteps_one, A_send; reflexivity.
  - (* later segment *) sv_nf. apply asteps_one, A_send; reflexivity.
  - (* final XFER_ACK *) sv_nf. apply asteps_one. eapply A_succ; eassumption.
  - (* XFER_REFUSE of the transfer in progress *)
    unfold tx_cur_is in *. destruct (tx_tmp s) as [[cur d]|] eqn:Et; [|discriminate].
    destruct (N.eqb_spec cur xid) as [->|]; [|discriminate].
    unfold refused. sv_nf. a_then (A_refuse_ps _ reason xid). a_then (A_refuse_cur _ reason xid d). apply AS_refl.
  - (* XFER_REFUSE of a queued transfer *) unfold refused. sv_nf. apply asteps_one. eapply A_refuse_ps; eassumption.
Qed.

(** The step into the message phase; which disjunct of [A_conn] holds is found by trying. *)
Ltac a_conn :=
  eapply asteps_cons;
  [apply A_conn; cbn; first [left; reflexivity | right; left; reflexivity | right; right; rewrite existsb_app; apply orb_true_r]|].

(** The abstract steps need not come in the order of the model's updates: an
    active endpoint is in the message phase only after its SESS_INIT was sent (or it has closed). *)
Lemma as_recv_contact q c s : closed s = false -> asteps (sv q s) (sv q (fst (recv_frame (FContact c) s))).
Proof.
  intros Cl. destruct (recv_contact_spec c s); cbn [fst]; unfold got_ch, sent_si, sent_ch.
  - apply as_close'.
  - sv_nf; a_then (A_send _ (FContact (mkContact MAGIC 4 0))); a_conn; a_then A_close; apply AS_refl.
  - sv_nf; a_then (A_send _ (FContact (mkContact MAGIC 4 0))); a_conn; apply AS_refl.
  - apply AS_refl.
  - sv_nf; a_then A_close; a_conn; apply AS_refl.
  - sv_nf; a_then (A_send _ (FMsg (si_msg_of (cf s)))); a_conn; apply AS_refl.
Qed.

(** One more segment of the transfer in progress. *)
Lemma as_seg q s id data : tx_tmp s = Some (id, data) ->
  (tx_len s =? N.of_nat (length data)) && (0 <? tx_len s) = false ->
  let seg := seg_data data (tx_len s) (seg_size s) in
  let newlen := tx_len s + N.of_nat (length seg) in
  let s1 := send_frame' (FMsg (seg_msg id data (tx_len s) seg)) (s <| tx_len := newlen |>) in
  asteps (sv q s) (sv q (if newlen =? N.of_nat (length data)
                         then s1 <| pend_ack := pend_ack s ++ [id] |> <| tx_tmp := None |> <| tx_len := 0 |> else s1)).
Proof.
  intros T Dn seg newlen s1. apply asteps_one.
  pose proof (A_seg (sv q s) id data (N.to_nat (seg_size s)) T Dn) as H. cbv zeta in H.
  destruct (newlen =? N.of_nat (length data)) eqn:E; unfold newlen, seg in E; unfold next_seg in H; cbn [a_tl sv] in H;
    unfold seg_data in E; rewrite E in H; exact H.
Qed.

Lemma as_send_next q s : asteps (sv q s) (sv q (send_next s)).
Proof.
  destruct (send_next_spec s) as [| |id data T Dn seg newlen E|id data T Dn seg newlen E]; try apply AS_refl;
    pose proof (as_seg q s id data T Dn) as H; cbv zeta in H; fold seg newlen in H; rewrite E in H; [exact H|].
  unfold pq_trigger'. as_peel. exact H.
Qed.

Lemma as_frame q fr rest s : closed s = false -> parse_frame (in_conn s) (rx_buf s) = Some (fr, rest) ->
  asteps (sv q s) (sv q (fst (recv_frame fr (rx_taken fr rest s)))).
Proof.
  intros Cl Hp. apply (asteps_cons _ (sv q (rx_taken fr rest s))); [exact (A_handle (sv q s) fr Cl)|].
  destruct fr as [c|m]; [apply as_recv_contact, Cl|].
  apply as_recv_msg; [exact Cl|exact (parse_frame_msg _ _ _ _ Hp)|apply in_or_app; right; left; reflexivity].
Qed.

(** ** Every operation is a sequence of abstract transitions *)
Theorem as_step q s o : asteps (sv q s) (sv (q ++ queued_by s o) (step s o)).
Proof.
  destruct (closed s) eqn:Cl.
  { rewrite step_closed by exact Cl. unfold queued_by. destruct o; rewrite ?Cl, ?app_nil_r; cbn [orb]; rewrite ?app_nil_r; sv_nf; apply AS_refl. }
  destruct (step_spec s o Cl); unfold queued_by; rewrite ?Cl, ?app_nil_r; cbn [orb]; rw_hyps; rewrite ?app_nil_r;
    (* not [spec_cases]: [send_next] stays whole, for [as_send_next] *)
    repeat match goal with H : txp_spec _ _ _ |- _ => destruct H | H : pq_spec _ _ |- _ => destruct H end; cbn [fst snd];
    try apply AS_refl; as_open; as_peel;
    repeat lazymatch goal with |- asteps _ (sv _ (send_next _)) => eapply asteps_trans; [|apply as_send_next] end;
    as_peel; try solve [sv_nf; apply AS_refl].
  - (* OSend *) unfold queued. sv_nf. apply asteps_one. eapply A_queue. reflexivity.
  - (* OTerm in a session *) sv_nf. apply asteps_one, A_term.
  - (* ORx *) apply (recv_raw_inv (fun x => asteps (sv q s) (sv q x)) (fun x => asteps (sv q s) (sv q x))).
    + unfold rx_begin. as_peel. apply AS_refl.
    + intros s0 fr rest H0 C0 Hp. eapply asteps_trans; [exact H0|apply as_frame; assumption].
    + auto.
    + intros s' k H0. match goal with |- asteps _ ?b => replace b with (sv q s') by (unfold exc; sv_nf; reflexivity) end. exact H0.
  - (* OPQ starts a transfer *) unfold xfer_started. sv_nf. apply asteps_one. eapply A_start; reflexivity.
  - (* idle timeout in a session *) sv_nf. apply asteps_one, A_term.
Qed.

Lemma queued_from_snoc ops : forall s o,
  queued_from s (ops ++ [o]) = queued_from s ops ++ queued_by (fold_left step ops s) o.
Proof.
  induction ops as [|a ops IH]; intros s o; cbn [app queued_from fold_left].
  - rewrite app_nil_r. reflexivity.
  - rewrite IH, app_assoc. reflexivity.
Qed.

Lemma queued_snoc c ops o : TcpclXferSpec.queued c (ops ++ [o]) = TcpclXferSpec.queued c ops ++ queued_by (run c ops) o.
Proof. apply queued_from_snoc. Qed.

(** Every reachable state is reachable in the abstract system, with the
    ghost queue equal to the bundles queued by the operations. *)
Theorem as_run c ops : asteps (sv [] (init c)) (sv (TcpclXferSpec.queued c ops) (run c ops)).
Proof.
  induction ops as [|o ops IH] using rev_ind; [apply AS_refl|].
  rewrite queued_snoc, run_snoc. eapply asteps_trans; [exact IH|apply as_step].
Qed.
