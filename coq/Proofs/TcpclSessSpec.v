(** The endpoint model [Model/TcpclSess.v], analysed once.

    - Canonical forms: every helper that branches on the state is rewritten as a
      flat chain of record updates of its argument, with the [if]s inside the
      field values ([send_frame'], [do_close'], ...), so that any projection of
      a resulting state computes ([ep_cbn]) without a case split.
    - Specifications: one inductive per operation, one constructor per path,
      the path conditions as hypotheses and the resulting state in canonical
      form: [hm_spec] (the message handler), [rc_spec] (the contact exchange),
      [sn_spec], [pq_spec], [txp_spec] ([send_next], [process_queue],
      [tx_proxy]) and [op_spec] ([step]).  A statement about a field of
      [step s o] or [recv_frame f s] is proved by destructing the specification
      and projecting.
    - Induction: [recv_loop_ind] and [recv_raw_ind] for the frames of one read,
      [step_ind_at] for one operation from a given state (an inner predicate
      holds while the frames of a read are handled), [step_ind] for invariants. *)
From Coq Require Import NArith List Bool PeanoNat.
From RecordUpdate Require Import RecordSet.
From DTN Require Import Lib.Bytes Model.TcpclMsg Model.TcpclSess Proofs.TcpclSessBasics.
From DTN Require Proofs.TcpclSentProofs1 Model.TcpclXferSpec.
Import ListNotations RecordSetNotations.
Local Open Scope N_scope.

(** * Canonical forms *)

Definition send_frame' (f : frame) (s : ep) : ep :=
  s <| msg_tx := msg_tx s ++ encode_frame f |> <| sent := sent s ++ [f] |> <| t_send := now s |>
    <| io_set := true |> <| n_io := if io_set s then n_io s else S (n_io s) |>
    <| pend_set := true |> <| n_idle := if pend_set s then n_idle s else S (n_idle s) |>
    <| ka_due := if 0 <? keepalive_time s then Some (now s + keepalive_time s * 1000) else None |>
    <| idle_due := if 0 <? idle_time s then Some (now s + idle_time s * 1000) else None |>.

Lemma send_frame_pr f s : send_frame f s = send_frame' f s.
Proof.
  destruct s; unfold send_frame, send_frame', idle_reset, ka_reset, send_ready; cbn;
  destruct io_set, pend_set; reflexivity.
Qed.

Definition del_all (l : list (N * bytes)) (m : list (N * N)) : list (N * N) :=
  fold_left (fun m (it : N * bytes) => dict_del (fst it) m) l m.

Definition flush_pend_start' (s : ep) : ep :=
  s <| pend_start := [] |>
    <| tx_map := del_all (pend_start s) (tx_map s) |>
    <| trace := trace s ++ map TcpclXferSpec.term_ev (pend_start s) |>.

Lemma flush_pend_start_pr s : flush_pend_start s = flush_pend_start' s.
Proof.
  unfold flush_pend_start, flush_pend_start', del_all.
  assert (G : forall l s0,
    fold_left (fun s it => emit (ESig SigSendFinished [PStrNum (fst it); PInt 0; PStr RES_TERMINATING])
                                (s <| tx_map := dict_del (fst it) (tx_map s) |>)) l s0
    = s0 <| tx_map := fold_left (fun m (it : N * bytes) => dict_del (fst it) m) l (tx_map s0) |>
         <| trace := trace s0 ++ map TcpclXferSpec.term_ev l |>).
  { induction l as [|it l IH]; intros s0.
    - destruct s0; cbn. rewrite app_nil_r. reflexivity.
    - cbn [fold_left map]. rewrite IH. destruct s0; unfold emit; cbn. rewrite <- app_assoc. reflexivity. }
  rewrite G. destruct s; reflexivity.
Qed.

(** [ContactHandler.close]: a close that actually happens first reports the
    transfers that were never started (as [flush_pend_start]). *)
Definition do_close' (s : ep) : ep :=
  s <| ka_due := None |> <| idle_due := None |>
    <| pend_start := if closed s then pend_start s else [] |>
    <| tx_map := if closed s then tx_map s else del_all (pend_start s) (tx_map s) |>
    <| io_set := if closed s then io_set s else false |>
    <| n_io := if closed s then n_io s else if io_set s then pred (n_io s) else n_io s |>
    <| closed := true |>
    <| trace := if closed s then trace s
                else (trace s ++ map TcpclXferSpec.term_ev (pend_start s)) ++ [EClosed] |>.

Lemma do_close_pr s : do_close s = do_close' s.
Proof.
  unfold do_close. cbv zeta. rewrite flush_pend_start_pr.
  destruct s; unfold do_close', flush_pend_start', emit; cbn; destruct closed, io_set; reflexivity.
Qed.

Definition set_state' (st : N) (s : ep) : ep :=
  s <| state := st |>
    <| trace := if state s =? st then trace s else trace s ++ [ESig SigState [PStr st]] |>.

Lemma set_state_pr st s : set_state st s = set_state' st s.
Proof.
  destruct s; unfold set_state, set_state', emit; cbn.
  destruct (N.eqb_spec state st) as [->|]; reflexivity.
Qed.

Definition pq_trigger' (s : ep) : ep :=
  s <| pq_set := true |> <| n_pq := if pq_set s then n_pq s else S (n_pq s) |>.

Lemma pq_trigger_pr s : pq_trigger s = pq_trigger' s.
Proof. destruct s; unfold pq_trigger, pq_trigger'; cbn; destruct pq_set; reflexivity. Qed.

(** [check_sess_term]: closes exactly when terminating and idle.  The condition
    is written as a function of field *values* ([cst6]): in the canonical forms
    no function other than a projection is ever applied to a state, so that
    computing a projection never leaves a compound state term behind. *)
Definition idle6 (rb mt : bytes) (rt tt : option (N * bytes)) (ps : list (N * bytes)) (pa : list N) : bool :=
  is_nil rb && is_nil mt
  && match rt with None => true | Some _ => false end
  && match tt with None => true | Some _ => false end
  && is_nil ps && is_nil pa.
Definition cst6 (it : bool) (rb mt : bytes) (rt tt : option (N * bytes)) (ps : list (N * bytes))
  (pa : list N) : bool := it && idle6 rb mt rt tt ps pa.
Notation cst s :=
  (cst6 (in_term s) (rx_buf s) (msg_tx s) (rx_tmp s) (tx_tmp s) (pend_start s) (pend_ack s)).

Lemma cst6_pend it rb mt rt tt ps pa : cst6 it rb mt rt tt ps pa = true -> ps = [].
Proof.
  unfold cst6, idle6, is_nil. destruct ps; [reflexivity|].
  rewrite !andb_false_r. cbn. rewrite ?andb_false_r. discriminate.
Qed.

Lemma is_sess_idle_eq s :
  is_sess_idle s = idle6 (rx_buf s) (msg_tx s) (rx_tmp s) (tx_tmp s) (pend_start s) (pend_ack s).
Proof. reflexivity. Qed.

Definition check_sess_term' (s : ep) : ep :=
  s <| ka_due := if cst s then None else ka_due s |>
    <| idle_due := if cst s then None else idle_due s |>
    <| io_set := if cst s then (if closed s then io_set s else false) else io_set s |>
    <| n_io := if cst s then (if closed s then n_io s else if io_set s then pred (n_io s) else n_io s)
               else n_io s |>
    <| closed := if cst s then true else closed s |>
    <| trace := if cst s then (if closed s then trace s else trace s ++ [EClosed]) else trace s |>.

Lemma check_sess_term_pr s : check_sess_term s = check_sess_term' s.
Proof.
  unfold check_sess_term, check_sess_term'. rewrite is_sess_idle_eq.
  change (in_term s && idle6 (rx_buf s) (msg_tx s) (rx_tmp s) (tx_tmp s) (pend_start s) (pend_ack s))
    with (cst s).
  destruct (cst s) eqn:E.
  - (* terminating and idle: nothing is left in [pend_start], the flush is void *)
    rewrite do_close_pr.
    pose proof (cst6_pend _ _ _ _ _ _ _ E) as Hp.
    destruct s; cbn in Hp; subst; unfold do_close', del_all; cbn; rewrite app_nil_r;
      destruct closed; reflexivity.
  - destruct s; reflexivity.
Qed.

(** * The states the operations lead to

    Abbreviations for the resulting states of the specifications below: chains
    of updates that [ep_cbn] opens ([seg_result] keeps one [if], on the END flag). *)

Definition ev_rstart (xid : N) : event := ESig SigRecvStarted [PStrNum xid; PDbusStr].
Definition ev_rinter (xid len : N) : event := ESig SigRecvInter [PStrNum xid; PInt len].
Definition ev_rfin (xid len : N) : event := ESig SigRecvFinished [PStrNum xid; PInt len; PStr RES_SUCCESS].
Definition ev_sinter (xid len : N) : event := ESig SigSendInter [PStrNum xid; PInt len].
Definition ev_sfin (xid len res : N) : event := ESig SigSendFinished [PStrNum xid; PInt len; PStr res].

Definition si_msg_of (c : cfg) : msg :=
  MSessInit (c_keepalive c) (c_seg_mru c) (2^64 - 1) (c_nodeid c) [].
Definition si_of (c : cfg) : sessinit := mkSI (c_keepalive c) (c_seg_mru c) (2^64 - 1) (c_nodeid c).

(** The state after the (passive side's) SESS_INIT has been sent. *)
Definition sent_si (s : ep) : ep :=
  (send_frame' (FMsg (si_msg_of (cf s))) s) <| sessinit_this := Some (si_of (cf s)) |>.

(** The state after a successful [merge_session_params]. *)
Definition merged (this : sessinit) (ka smru : N) (s : ep) : ep :=
  let kt := N.min (si_keepalive this) ka in
  let it := c_idle (cf s) in
  s <| keepalive_time := kt |> <| idle_time := it |>
    <| ka_due := if 0 <? kt then Some (now s + kt * 1000) else None |>
    <| idle_due := if 0 <? it then Some (now s + it * 1000) else None |>
    <| seg_size := N.min (c_seg_init (cf s)) smru |>.

Definition with_peer (ka smru xmru : N) (nodeid : bytes) (s : ep) : ep :=
  s <| sessinit_peer := Some (mkSI ka smru xmru nodeid) |> <| in_sess := true |>.

(** Acknowledging a segment whose accumulated data is [acc]. *)
Definition seg_acked (flags xid : N) (acc : bytes) (s1 : ep) : ep :=
  send_frame' (FMsg (MXferAck flags xid (N.of_nat (length acc)))) (s1 <| rx_tmp := Some (xid, acc) |>).

Definition seg_result (flags xid : N) (acc : bytes) (s1 : ep) : ep :=
  let s2 := seg_acked flags xid acc s1 in
  let len := N.of_nat (length acc) in
  if has_end flags then
    check_sess_term' (s2 <| rx_map := dict_set xid acc (rx_map s1) |>
                         <| trace := trace s1 ++ [ev_rfin xid len] |> <| rx_tmp := None |>)
  else s2 <| trace := trace s1 ++ [ev_rinter xid len] |>.

Definition rx_started (xid : N) (s : ep) : ep :=
  s <| rx_tmp := Some (xid, []) |> <| trace := trace s ++ [ev_rstart xid] |>.

Definition tx_cur_is (xid : N) (s : ep) : bool :=
  match tx_tmp s with Some (cur, _) => cur =? xid | None => false end.

Definition refused (reason xid ack : N) (s : ep) : ep :=
  s <| tx_map := dict_del xid (tx_map s) |>
    <| trace := trace s ++ [ev_sfin xid ack (RES_REFUSED reason)] |>
    <| pend_ack := remove_N xid (pend_ack s) |>
    <| pend_start := dict_del xid (pend_start s) |>.

Definition sent_ch (s : ep) : ep :=
  (send_frame' (FContact (mkContact MAGIC 4 0)) s) <| conhead_this := Some 0 |>.

Definition got_ch (c : contact) (s : ep) : ep :=
  set_state' ST_SESSNEG (s <| conhead_peer := Some (ch_flags c) |> <| in_conn := true |>).

(** What [recv_message] makes of the handler's outcome: a reject is answered. *)
Definition msg_result (m : msg) (r : ep * outcome) : res :=
  match snd r with
  | Done => (fst r, None)
  | Reject reason => (send_frame' (FMsg (MReject (msg_id m) reason)) (fst r), None)
  | Escaped k => (fst r, Some k)
  end.

Definition term_sent (reason : N) (reply : bool) (s : ep) : ep :=
  send_frame' (FMsg (MSessTerm (if reply then 1 else 0) reason))
              (set_state' ST_ENDING (s <| in_term := true |>)).

Definition seg_data (data : bytes) (off size : N) : bytes :=
  firstn (N.to_nat size) (skipn (N.to_nat off) data).

(** The XFER_SEGMENT that carries [seg] from offset [off] of transfer [id]. *)
Definition seg_msg (id : N) (data : bytes) (off : N) (seg : bytes) : msg :=
  let total := N.of_nat (length data) in
  MXferSeg ((if off =? 0 then FLAG_START else 0)
            + (if off + N.of_nat (length seg) =? total then FLAG_END else 0))
           id (if off =? 0 then total_length_ext total else []) seg.

Definition xfer_started (id : N) (data : bytes) (rest : list (N * bytes)) (s : ep) : ep :=
  s <| pend_start := rest |> <| tx_tmp := Some (id, data) |> <| tx_len := 0 |>
    <| trace := trace s ++ [ESig SigSendStarted [PStrNum id; PInt (N.of_nat (length data))]] |>.

(** Top-up of the connection buffer from the message buffer, when the former
    holds less than a chunk; [tx_drained]: the top-up was tried and found nothing. *)
Definition tx_pull (s : ep) : ep :=
  let pull := N.of_nat (length (conn_tx s)) <? CHUNK in
  let rest := skipn chunk_nat (msg_tx s) in
  let low := pull && (N.of_nat (length rest) <? 5 * seg_size s) in
  s <| msg_tx := if pull then rest else msg_tx s |>
    <| pq_set := if low then true else pq_set s |>
    <| n_pq := if low then (if pq_set s then n_pq s else S (n_pq s)) else n_pq s |>
    <| conn_tx := if pull then conn_tx s ++ firstn chunk_nat (msg_tx s) else conn_tx s |>.

Definition tx_drained (s : ep) : bool :=
  (N.of_nat (length (conn_tx s)) <? CHUNK) && is_nil (firstn chunk_nat (msg_tx s)).

Definition tx_accepted (accept : N) (s1 : ep) : N :=
  N.min (N.of_nat (length (firstn chunk_nat (conn_tx s1)))) accept.

Definition queued (data : bytes) (s : ep) : ep :=
  (pq_trigger' (s <| next_id := next_id s + 1 |> <| pend_start := pend_start s ++ [(next_id s, data)] |>
                  <| tx_map := dict_set (next_id s) 0 (tx_map s) |>))
    <| trace := trace s ++ [ERet 1 (PStrNum (next_id s))] |>.

(** The pump source that ran stays registered iff [tx_proxy] says so. *)
Definition pump_done (idle cont : bool) (s1 : ep) : ep :=
  s1 <| io_set := if cont then io_set s1 else false |>
     <| n_idle := if cont then n_idle s1 else if idle then pred (n_idle s1) else n_idle s1 |>
     <| n_io := if cont then n_io s1 else if idle then n_io s1 else pred (n_io s1) |>.

Definition pq_done (keep : bool) (s1 : ep) : ep :=
  s1 <| n_pq := if keep then n_pq s1 else pred (n_pq s1) |>.

Definition exc (k : N) (s : ep) : ep := s <| trace := trace s ++ [EExc k] |>.

(** An exception escaping the receive callback removes the socket watch. *)
Definition rx_done (r : res) : ep :=
  match r with (s1, None) => s1 | (s1, Some k) => exc k (s1 <| rx_alive := false |>) end.

(** The state in which [recv_raw] enters its loop. *)
Definition rx_begin (data : bytes) (s : ep) : ep :=
  s <| t_recv := now s |>
    <| idle_due := if 0 <? idle_time s then Some (now s + idle_time s * 1000) else None |>
    <| rx_buf := rx_buf s ++ data |>.

(** The state a frame is handled in: taken off the buffer and logged. *)
Definition rx_taken (fr : frame) (rest : bytes) (s : ep) : ep :=
  s <| rx_buf := rest |> <| handled := handled s ++ [fr] |>.

(* [cbn] on a state must not open the codec inside its field values. *)
Arguments encode_frame : simpl never.
Arguments encode_msg : simpl never.
Arguments parse_frame : simpl never.

(** Unfold the thin wrappers ([ep_unf]); switch to the canonical forms
    ([ep_pr]: rewriting under a pending [if] copies the update chain into
    both branches, so decide the conditions first); compute
    every projection ([ep_cbn]; the [setter_] constants are what a record
    update elaborates to in a file that imports [TcpclSentProofs1]). *)
Ltac ep_unf :=
  unfold send_contact_header, send_sess_init, send_msg,
         send_buffer_decreased, emit, ka_reset, idle_reset, ok, raise, escape.
Ltac ep_pr :=
  rewrite ?send_frame_pr, ?do_close_pr, ?set_state_pr, ?pq_trigger_pr, ?flush_pend_start_pr,
          ?check_sess_term_pr.
Ltac ep_cbn :=
  cbn [cf now closed rx_alive conn_tx io_set pend_set n_io n_idle state in_conn in_sess in_term
       conhead_this conhead_peer sessinit_this sessinit_peer rx_buf msg_tx keepalive_time idle_time
       ka_due idle_due seg_size next_id pend_start pend_ack tx_map tx_tmp tx_len pq_set n_pq rx_tmp
       rx_map sent handled t_send t_recv wire trace set fst snd negb ok raise
       si_keepalive si_seg_mru si_xfer_mru si_nodeid
       send_frame' do_close' set_state' pq_trigger' flush_pend_start' check_sess_term'
       sent_si merged with_peer seg_acked rx_started refused sent_ch got_ch msg_result
       term_sent xfer_started tx_pull queued pump_done pq_done exc rx_done rx_begin rx_taken
       TcpclSentProofs1.setter_cf TcpclSentProofs1.setter_now TcpclSentProofs1.setter_closed TcpclSentProofs1.setter_rx_alive 
       TcpclSentProofs1.setter_conn_tx TcpclSentProofs1.setter_io_set TcpclSentProofs1.setter_pend_set TcpclSentProofs1.setter_n_io 
       TcpclSentProofs1.setter_n_idle TcpclSentProofs1.setter_state TcpclSentProofs1.setter_in_conn TcpclSentProofs1.setter_in_sess 
       TcpclSentProofs1.setter_in_term TcpclSentProofs1.setter_conhead_this TcpclSentProofs1.setter_conhead_peer TcpclSentProofs1.setter_sessinit_this 
       TcpclSentProofs1.setter_sessinit_peer TcpclSentProofs1.setter_rx_buf TcpclSentProofs1.setter_msg_tx TcpclSentProofs1.setter_keepalive_time 
       TcpclSentProofs1.setter_idle_time TcpclSentProofs1.setter_ka_due TcpclSentProofs1.setter_idle_due TcpclSentProofs1.setter_seg_size 
       TcpclSentProofs1.setter_next_id TcpclSentProofs1.setter_pend_start TcpclSentProofs1.setter_pend_ack TcpclSentProofs1.setter_tx_map 
       TcpclSentProofs1.setter_tx_tmp TcpclSentProofs1.setter_tx_len TcpclSentProofs1.setter_pq_set TcpclSentProofs1.setter_n_pq 
       TcpclSentProofs1.setter_rx_tmp TcpclSentProofs1.setter_rx_map TcpclSentProofs1.setter_sent TcpclSentProofs1.setter_handled 
       TcpclSentProofs1.setter_t_send TcpclSentProofs1.setter_t_recv TcpclSentProofs1.setter_wire TcpclSentProofs1.setter_trace].

(** Case-split on an [if]/[match] scrutinee, in the goal or a hypothesis, that
    does not go through a helper still in its original form. *)
Ltac simple_scrut c :=
  lazymatch c with
  | context[if _ then _ else _] => fail
  | context[match _ with _ => _ end] => fail
  | context[send_frame] => fail
  | context[send_msg] => fail
  | context[send_contact_header] => fail
  | context[send_sess_init] => fail
  | context[emit] => fail
  | context[ka_reset] => fail
  | context[idle_reset] => fail
  | context[send_buffer_decreased] => fail
  | context[escape] => fail
  | context[do_close] => fail
  | context[set_state] => fail
  | context[pq_trigger] => fail
  | context[flush_pend_start] => fail
  | context[check_sess_term] => fail
  | _ => idtac
  end.
Ltac brk_any :=
  once match goal with
  | |- context[if ?c then _ else _] => simple_scrut c; destruct c eqn:?
  | H : context[if ?c then _ else _] |- _ => simple_scrut c; destruct c eqn:?
  | |- context[match ?x with _ => _ end] => simple_scrut x; destruct x eqn:?
  | H : context[match ?x with _ => _ end] |- _ => simple_scrut x; destruct x eqn:?
  end.


(** * The receive loop *)

Lemma recv_loop_ind (P : ep -> Prop) (Q : ep -> option N -> Prop)
  (Hstop : forall s, P s -> Q s None)
  (Hstep : forall s fr rest s' r, P s -> closed s = false ->
       parse_frame (in_conn s) (rx_buf s) = Some (fr, rest) ->
       recv_frame fr (s <| rx_buf := rest |> <| handled := handled s ++ [fr] |>) = (s', r) ->
       match r with None => P s' | Some k => Q s' (Some k) end) :
  forall fuel s, P s -> Q (fst (recv_loop fuel s)) (snd (recv_loop fuel s)).
Proof.
  induction fuel as [|f IH]; intros s Hs; cbn [recv_loop].
  - apply Hstop, Hs.
  - destruct (is_nil (rx_buf s) || closed s) eqn:E; [apply Hstop, Hs|].
    apply orb_false_iff in E. destruct E as [_ E2].
    destruct (parse_frame (in_conn s) (rx_buf s)) as [[fr rest]|] eqn:Ep; [|apply Hstop, Hs].
    destruct (recv_frame fr _) as [s' r] eqn:Er.
    pose proof (Hstep s fr rest s' r Hs E2 Ep Er) as H.
    destruct r as [k|]; [exact H|]. apply IH, H.
Qed.

(** * The message handler

    [hm_spec m s r]: [r] is the result of [handle_msg m s]. *)

Inductive hm_spec : msg -> ep -> ep * outcome -> Prop :=
| HM_keepalive s : hm_spec MKeepalive s (s, Done)
| HM_reject a b s : hm_spec (MReject a b) s (s, Done)
(* SESS_INIT *)
| HM_init_passive_unicode ka smru xmru nodeid ext s :
    c_passive (cf s) = true -> ascii nodeid = false ->
    hm_spec (MSessInit ka smru xmru nodeid ext) s
            (with_peer ka smru xmru nodeid (sent_si s), Escaped EX_UNICODE)
| HM_init_passive_ok ka smru xmru nodeid ext s :
    c_passive (cf s) = true -> ascii nodeid = true ->
    hm_spec (MSessInit ka smru xmru nodeid ext) s
            (set_state' ST_ESTABLISHED
               (merged (si_of (cf s)) ka smru (with_peer ka smru xmru nodeid (sent_si s))), Done)
| HM_init_active_attr ka smru xmru nodeid ext s :
    c_passive (cf s) = false -> sessinit_this s = None ->
    hm_spec (MSessInit ka smru xmru nodeid ext) s
            (with_peer ka smru xmru nodeid s, Escaped EX_ATTRIBUTE)
| HM_init_active_unicode ka smru xmru nodeid ext s this :
    c_passive (cf s) = false -> sessinit_this s = Some this -> ascii nodeid = false ->
    hm_spec (MSessInit ka smru xmru nodeid ext) s
            (with_peer ka smru xmru nodeid s, Escaped EX_UNICODE)
| HM_init_active_ok ka smru xmru nodeid ext s this :
    c_passive (cf s) = false -> sessinit_this s = Some this -> ascii nodeid = true ->
    hm_spec (MSessInit ka smru xmru nodeid ext) s
            (set_state' ST_ESTABLISHED (merged this ka smru (with_peer ka smru xmru nodeid s)), Done)
(* SESS_TERM *)
| HM_term_rej flags reason s :
    in_sess s = false -> hm_spec (MSessTerm flags reason) s (s, Reject REJ_UNEXPECTED)
| HM_term_already flags reason s :
    in_sess s = true -> in_term s = true ->
    hm_spec (MSessTerm flags reason) s (check_sess_term' (flush_pend_start' s), Done)
| HM_term_reply flags reason s :
    in_sess s = true -> in_term s = false ->
    hm_spec (MSessTerm flags reason) s
            (check_sess_term' (flush_pend_start' (term_sent reason true s)), Done)
(* XFER_SEGMENT *)
| HM_seg_rej_sess flags xid ext data s :
    in_sess s = false -> hm_spec (MXferSeg flags xid ext data) s (s, Reject REJ_UNEXPECTED)
| HM_seg_rej_none flags xid ext data s :
    in_sess s = true -> has_start flags = false -> rx_tmp s = None ->
    hm_spec (MXferSeg flags xid ext data) s (s, Reject REJ_UNEXPECTED)
| HM_seg_rej_other flags xid ext data s cur acc :
    in_sess s = true -> has_start flags = false -> rx_tmp s = Some (cur, acc) -> (cur =? xid) = false ->
    hm_spec (MXferSeg flags xid ext data) s (s, Reject REJ_UNEXPECTED)
| HM_seg_start flags xid ext data s :
    in_sess s = true -> has_start flags = true ->
    hm_spec (MXferSeg flags xid ext data) s (seg_result flags xid data (rx_started xid s), Done)
| HM_seg_cont flags xid ext data s cur acc :
    in_sess s = true -> has_start flags = false -> rx_tmp s = Some (cur, acc) -> (cur =? xid) = true ->
    hm_spec (MXferSeg flags xid ext data) s (seg_result flags xid (acc ++ data) s, Done)
(* XFER_ACK *)
| HM_ack_rej_sess flags xid len s :
    in_sess s = false -> hm_spec (MXferAck flags xid len) s (s, Reject REJ_UNEXPECTED)
| HM_ack_rej_unknown flags xid len s :
    in_sess s = true -> dict_get xid (tx_map s) = None ->
    hm_spec (MXferAck flags xid len) s (s, Reject REJ_UNEXPECTED)
| HM_ack_rej_notpend flags xid len s a :
    in_sess s = true -> dict_get xid (tx_map s) = Some a -> has_end flags = true ->
    mem_N xid (pend_ack s) = false ->
    hm_spec (MXferAck flags xid len) s
            (s <| tx_map := dict_set xid len (tx_map s) |>, Reject REJ_UNEXPECTED)
| HM_ack_end flags xid len s a :
    in_sess s = true -> dict_get xid (tx_map s) = Some a -> has_end flags = true ->
    mem_N xid (pend_ack s) = true ->
    hm_spec (MXferAck flags xid len) s
            (check_sess_term'
               (s <| trace := trace s ++ [ev_sfin xid len RES_SUCCESS] |>
                  <| pend_ack := remove_N xid (pend_ack s) |>
                  <| tx_map := dict_del xid (dict_set xid len (tx_map s)) |>), Done)
| HM_ack_inter flags xid len s a :
    in_sess s = true -> dict_get xid (tx_map s) = Some a -> has_end flags = false ->
    hm_spec (MXferAck flags xid len) s
            (s <| tx_map := dict_set xid len (tx_map s) |>
               <| trace := trace s ++ [ev_sinter xid len] |>, Done)
(* XFER_REFUSE *)
| HM_refuse_rej_sess reason xid s :
    in_sess s = false -> hm_spec (MXferRefuse reason xid) s (s, Reject REJ_UNEXPECTED)
| HM_refuse_rej_unknown reason xid s :
    in_sess s = true -> dict_get xid (tx_map s) = None ->
    hm_spec (MXferRefuse reason xid) s (s, Reject REJ_UNEXPECTED)
| HM_refuse_cur reason xid s ack :
    in_sess s = true -> dict_get xid (tx_map s) = Some ack -> tx_cur_is xid s = true ->
    hm_spec (MXferRefuse reason xid) s
            (check_sess_term' (pq_trigger' ((refused reason xid ack s) <| tx_tmp := None |> <| tx_len := 0 |>)),
             Done)
| HM_refuse_other reason xid s ack :
    in_sess s = true -> dict_get xid (tx_map s) = Some ack -> tx_cur_is xid s = false ->
    hm_spec (MXferRefuse reason xid) s (check_sess_term' (refused reason xid ack s), Done).

(* [eapply eq_ind; [eapply C; ..|]; reflexivity]: constructor [C] applied up to an
   equation on the resulting state, which the goal has unfolded and [C] states
   through the abbreviations. *)
Lemma handle_msg_spec m s : hm_spec m s (handle_msg m s).
Proof.
  destruct m as [flags xid ext data|flags xid len|reason xid| |flags reason|a b|ka smru xmru nodeid ext].
  - (* XFER_SEGMENT *)
    unfold handle_msg.
    destruct (in_sess s) eqn:Hs; cbn [negb]; [|constructor; assumption].
    destruct (has_start flags) eqn:Hst.
    + destruct (has_end flags) eqn:He.
      * ep_unf; ep_pr. eapply eq_ind; [eapply HM_seg_start; eassumption|].
        unfold seg_result, seg_acked, rx_started, ev_rfin, ev_rstart. rewrite He. reflexivity.
      * ep_unf; ep_pr. eapply eq_ind; [eapply HM_seg_start; eassumption|].
        unfold seg_result, seg_acked, rx_started, ev_rinter, ev_rstart. rewrite He. reflexivity.
    + destruct (rx_tmp s) as [[cur acc]|] eqn:Hr; [|constructor; assumption].
      destruct (cur =? xid) eqn:Hc; [|econstructor; eassumption].
      destruct (has_end flags) eqn:He.
      * ep_unf; ep_pr. eapply eq_ind; [eapply HM_seg_cont; eassumption|].
        unfold seg_result, seg_acked, ev_rfin. rewrite He. ep_cbn. rewrite Hr. reflexivity.
      * ep_unf; ep_pr. eapply eq_ind; [eapply HM_seg_cont; eassumption|].
        unfold seg_result, seg_acked, ev_rinter. rewrite He. ep_cbn. rewrite Hr. reflexivity.
  - (* XFER_ACK *)
    unfold handle_msg.
    destruct (in_sess s) eqn:Hs; cbn [negb]; [|constructor; assumption].
    destruct (dict_get xid (tx_map s)) as [a|] eqn:Hg; [|constructor; assumption].
    destruct (has_end flags) eqn:He.
    + ep_cbn. destruct (mem_N xid (pend_ack s)) eqn:Hm; cbn [negb].
      * ep_unf; ep_pr. eapply eq_ind; [eapply HM_ack_end; eassumption|]. reflexivity.
      * econstructor; eassumption.
    + ep_unf. eapply eq_ind; [eapply HM_ack_inter; eassumption|]. reflexivity.
  - (* XFER_REFUSE *)
    unfold handle_msg.
    destruct (in_sess s) eqn:Hs; cbn [negb]; [|constructor; assumption].
    destruct (dict_get xid (tx_map s)) as [a|] eqn:Hg; [|constructor; assumption].
    ep_unf; ep_cbn.
    destruct (tx_tmp s) as [[cur d]|] eqn:Ht.
    + destruct (cur =? xid) eqn:Hc.
      * ep_pr. eapply eq_ind; [eapply HM_refuse_cur; try eassumption|reflexivity].
        unfold tx_cur_is. rewrite Ht. exact Hc.
      * ep_pr. eapply eq_ind; [eapply HM_refuse_other; try eassumption|reflexivity].
        unfold tx_cur_is. rewrite Ht. exact Hc.
    + ep_pr. eapply eq_ind; [eapply HM_refuse_other; try eassumption|reflexivity].
      unfold tx_cur_is. rewrite Ht. reflexivity.
  - constructor.
  - (* SESS_TERM *)
    unfold handle_msg, send_sess_term.
    destruct (in_sess s) eqn:Hs; cbn [negb]; [|constructor; assumption].
    destruct (in_term s) eqn:Ht.
    + ep_pr. constructor; assumption.
    + cbn [negb]. ep_unf; ep_pr. constructor; assumption.
  - constructor.
  - (* SESS_INIT *)
    unfold handle_msg, merge_session_params.
    destruct (c_passive (cf s)) eqn:Hp.
    + ep_unf; ep_pr; ep_cbn.
      destruct (ascii nodeid) eqn:Ha; cbn [negb].
      * ep_cbn. ep_pr. eapply eq_ind; [eapply HM_init_passive_ok; eassumption|]. reflexivity.
      * eapply eq_ind; [eapply HM_init_passive_unicode; eassumption|]. reflexivity.
    + ep_cbn. destruct (sessinit_this s) as [this|] eqn:Hth.
      * destruct (ascii nodeid) eqn:Ha; cbn [negb].
        -- ep_unf; ep_cbn; ep_pr. eapply eq_ind; [eapply HM_init_active_ok; eassumption|]. reflexivity.
        -- eapply eq_ind; [eapply HM_init_active_unicode; eassumption|]. reflexivity.
      * eapply eq_ind; [eapply HM_init_active_attr; eassumption|]. reflexivity.
Qed.

(** [P] of the handler's result: [P] of every result its specification allows. *)
Lemma hm_cases (P : ep * outcome -> Prop) m s : (forall r, hm_spec m s r -> P r) -> P (handle_msg m s).
Proof. intros H. apply H, handle_msg_spec. Qed.

(** * One received frame, by kind *)

Inductive rc_spec (c : contact) (s : ep) : res -> Prop :=
| RCs_bad : contact_ok c = false -> rc_spec c s (do_close' s, None)
| RCs_passive_tls :
    contact_ok c = true -> c_passive (cf s) = true -> c_require_tls (cf s) = Some true ->
    rc_spec c s (do_close' (got_ch c (sent_ch s)), None)
| RCs_passive_ok :
    contact_ok c = true -> c_passive (cf s) = true -> c_require_tls (cf s) <> Some true ->
    rc_spec c s (got_ch c (sent_ch s), None)
| RCs_active_attr :
    contact_ok c = true -> c_passive (cf s) = false -> conhead_this s = None ->
    rc_spec c s (s, Some EX_ATTRIBUTE)
| RCs_active_tls x :
    contact_ok c = true -> c_passive (cf s) = false -> conhead_this s = Some x ->
    c_require_tls (cf s) = Some true ->
    rc_spec c s (do_close' (got_ch c s), None)
| RCs_active_ok x :
    contact_ok c = true -> c_passive (cf s) = false -> conhead_this s = Some x ->
    c_require_tls (cf s) <> Some true ->
    rc_spec c s (sent_si (got_ch c s), None).

Lemma send_sess_init_pr s : send_sess_init s = sent_si s.
Proof. unfold send_sess_init, sent_si, send_msg. rewrite send_frame_pr. reflexivity. Qed.

Lemma recv_contact_spec c s : rc_spec c s (recv_frame (FContact c) s).
Proof.
  cbn [recv_frame].
  destruct (bytes_eqb (ch_magic c) MAGIC) eqn:Hm; cbn [negb].
  2:{ rewrite do_close_pr. apply RCs_bad. unfold contact_ok. rewrite Hm. reflexivity. }
  destruct (ch_version c =? 4) eqn:Hv; cbn [negb].
  2:{ rewrite do_close_pr. apply RCs_bad. unfold contact_ok. rewrite Hm, Hv. reflexivity. }
  assert (Hok : contact_ok c = true) by (unfold contact_ok; rewrite Hm, Hv; reflexivity).
  (* the two sides are made syntactically equal ([fold]) before a constructor is
     applied: conversion between two different chains of updates does not end
     in reasonable time *)
  destruct (c_passive (cf s)) eqn:Hp.
  - replace ((send_contact_header s) <| conhead_this := Some (contact_flags s) |>) with (sent_ch s)
      by (unfold send_contact_header, sent_ch; rewrite send_frame_pr; reflexivity).
    unfold sent_ch at 1. ep_cbn. fold (sent_ch s). rewrite set_state_pr. fold (got_ch c (sent_ch s)).
    replace (cf (got_ch c (sent_ch s))) with (cf s) by reflexivity. rewrite Hp.
    destruct (c_require_tls (cf s)) as [[|]|] eqn:Ht.
    + rewrite do_close_pr. apply RCs_passive_tls; assumption.
    + apply RCs_passive_ok; congruence.
    + apply RCs_passive_ok; congruence.
  - destruct (conhead_this s) as [x|] eqn:Hc; [|apply RCs_active_attr; assumption].
    rewrite set_state_pr. fold (got_ch c s).
    replace (cf (got_ch c s)) with (cf s) by reflexivity. rewrite Hp.
    destruct (c_require_tls (cf s)) as [[|]|] eqn:Ht.
    + rewrite do_close_pr. eapply RCs_active_tls; eassumption.
    + rewrite send_sess_init_pr. eapply RCs_active_ok; try eassumption; congruence.
    + rewrite send_sess_init_pr. eapply RCs_active_ok; try eassumption; congruence.
Qed.

Lemma recv_msg_pr m s : recv_frame (FMsg m) s = msg_result m (handle_msg m s).
Proof.
  cbn [recv_frame]. unfold msg_result. destruct (handle_msg m s) as [s' [|r|k]]; cbn [fst snd]; ep_unf; ep_pr; reflexivity.
Qed.

(** * [send_sess_term] *)

Lemma send_sess_term_pr reason reply s : send_sess_term reason reply s =
  if in_sess s && negb (in_term s) then (term_sent reason reply s, None) else (s, Some EX_RUNTIME).
Proof.
  unfold send_sess_term, term_sent. destruct (in_sess s), (in_term s); cbn [negb andb]; try reflexivity.
  ep_unf; ep_pr. reflexivity.
Qed.

(** * [send_next]: the next segment of the transfer in progress *)

Inductive sn_spec (s : ep) : ep -> Prop :=
| SN_none : tx_tmp s = None -> sn_spec s s
| SN_done id data :
    tx_tmp s = Some (id, data) ->
    (tx_len s =? N.of_nat (length data)) && (0 <? tx_len s) = true -> sn_spec s s
| SN_more id data :
    tx_tmp s = Some (id, data) ->
    (tx_len s =? N.of_nat (length data)) && (0 <? tx_len s) = false ->
    let seg := seg_data data (tx_len s) (seg_size s) in
    let newlen := tx_len s + N.of_nat (length seg) in
    (newlen =? N.of_nat (length data)) = false ->
    sn_spec s (send_frame' (FMsg (seg_msg id data (tx_len s) seg)) (s <| tx_len := newlen |>))
| SN_last id data :
    tx_tmp s = Some (id, data) ->
    (tx_len s =? N.of_nat (length data)) && (0 <? tx_len s) = false ->
    let seg := seg_data data (tx_len s) (seg_size s) in
    let newlen := tx_len s + N.of_nat (length seg) in
    (newlen =? N.of_nat (length data)) = true ->
    sn_spec s (pq_trigger' ((send_frame' (FMsg (seg_msg id data (tx_len s) seg)) (s <| tx_len := newlen |>))
                              <| pend_ack := pend_ack s ++ [id] |> <| tx_tmp := None |> <| tx_len := 0 |>)).

Lemma send_next_spec s : sn_spec s (send_next s).
Proof.
  unfold send_next. destruct (tx_tmp s) as [[id data]|] eqn:Et; [|apply SN_none, Et].
  cbv zeta. destruct ((tx_len s =? N.of_nat (length data)) && (0 <? tx_len s)) eqn:Ed;
    [eapply SN_done; eassumption|].
  destruct (tx_len s + N.of_nat (length (seg_data data (tx_len s) (seg_size s)))
            =? N.of_nat (length data)) eqn:Ee; unfold seg_data in Ee; rewrite Ee; ep_unf; ep_pr.
  - eapply eq_ind; [eapply SN_last; eassumption|]. unfold seg_msg, seg_data. rewrite Ee. reflexivity.
  - eapply eq_ind; [eapply SN_more; eassumption|]. unfold seg_msg, seg_data. rewrite Ee. reflexivity.
Qed.

(** * [process_queue] *)

Inductive pq_spec (s : ep) : ep * bool -> Prop :=
| PQ_active p : tx_tmp s = Some p -> pq_spec s (send_next (s <| pq_set := false |>), false)
| PQ_wait : tx_tmp s = None -> in_sess s = false -> pq_spec s (s <| pq_set := false |>, true)
| PQ_term : tx_tmp s = None -> in_sess s = true -> in_term s = true ->
    pq_spec s (s <| pq_set := false |>, false)
| PQ_empty : tx_tmp s = None -> in_sess s = true -> in_term s = false -> pend_start s = [] ->
    pq_spec s (s <| pq_set := false |>, false)
| PQ_start id data rest :
    tx_tmp s = None -> in_sess s = true -> in_term s = false -> pend_start s = (id, data) :: rest ->
    pq_spec s (send_next (xfer_started id data rest (s <| pq_set := false |>)), false).

Lemma process_queue_spec s : pq_spec s (process_queue s).
Proof.
  unfold process_queue. cbv zeta. ep_cbn.
  destruct (tx_tmp s) as [p|] eqn:Et; [eapply PQ_active, Et|].
  destruct (in_sess s) eqn:Es; cbn [negb]; [|apply PQ_wait; assumption].
  destruct (in_term s) eqn:Ei; [apply PQ_term; assumption|].
  destruct (pend_start s) as [|[id data] rest] eqn:Ep; [apply PQ_empty; assumption|].
  ep_unf. eapply eq_ind; [eapply PQ_start; eassumption|]. reflexivity.
Qed.

(** * [tx_proxy] *)

Inductive txp_spec (accept : N) (s : ep) : ep * bool -> Prop :=
| TP_nothing : conn_tx (tx_pull s) = [] -> txp_spec accept s (tx_pull s, negb (tx_drained s))
| TP_fail : conn_tx (tx_pull s) <> [] -> tx_accepted accept (tx_pull s) = 0 ->
    txp_spec accept s (do_close' (tx_pull s), false)
| TP_write : conn_tx (tx_pull s) <> [] -> tx_accepted accept (tx_pull s) <> 0 ->
    let k := N.to_nat (tx_accepted accept (tx_pull s)) in
    txp_spec accept s ((tx_pull s) <| wire := wire s ++ firstn k (conn_tx (tx_pull s)) |>
                                   <| conn_tx := skipn k (conn_tx (tx_pull s)) |>,
                       negb (is_nil (skipn k (conn_tx (tx_pull s)))) || negb (tx_drained s)).

Lemma tx_proxy_spec accept s : txp_spec accept s (tx_proxy accept s).
Proof.
  unfold tx_proxy.
  match goal with |- txp_spec _ _ (match ?p with _ => _ end) =>
    replace p with (tx_pull s, tx_drained s) end.
  2:{ unfold tx_pull, tx_drained, send_buffer_decreased.
      destruct (N.of_nat (length (conn_tx s)) <? CHUNK); cbn [andb]; [|destruct s; reflexivity].
      cbv zeta. ep_cbn. destruct (_ <? 5 * seg_size s); ep_pr; destruct s; reflexivity. }
  destruct (conn_tx (tx_pull s)) eqn:Ec; cbn [is_nil]; [apply TP_nothing, Ec|].
  rewrite <- Ec. cbv zeta. fold (tx_accepted accept (tx_pull s)).
  destruct (N.eqb_spec (tx_accepted accept (tx_pull s)) 0) as [E0|E0].
  - ep_pr. apply TP_fail; [congruence|exact E0].
  - eapply eq_ind; [apply TP_write; [congruence|exact E0]|]. reflexivity.
Qed.

(** * [step], for an open endpoint *)

Inductive op_spec (s : ep) : op -> ep -> Prop :=
| OS_advance dt : op_spec s (OAdvance dt) (s <| now := now s + dt |>)
| OS_start_not : (state s =? ST_CONNECTING) = false -> op_spec s OStart s
| OS_start_passive : (state s =? ST_CONNECTING) = true -> c_passive (cf s) = true ->
    op_spec s OStart (set_state' ST_CONTACT s)
| OS_start_active : (state s =? ST_CONNECTING) = true -> c_passive (cf s) = false ->
    op_spec s OStart (set_state' ST_CONTACT (sent_ch s))
| OS_send_refused data : in_term s = true -> op_spec s (OSend data) (exc EX_RUNTIME s)
| OS_send data : in_term s = false -> op_spec s (OSend data) (queued data s)
| OS_term_close r : in_sess s = false -> op_spec s (OTerm r) (do_close' s)
| OS_term_again r : in_sess s = true -> in_term s = true -> op_spec s (OTerm r) (exc EX_RUNTIME s)
| OS_term r : in_sess s = true -> in_term s = false -> op_spec s (OTerm r) (term_sent r false s)
| OS_close : op_spec s OClose (do_close' s)
| OS_pop_none id : dict_get id (rx_map s) = None -> op_spec s (OPop id) (exc EX_KEY s)
| OS_pop id data : dict_get id (rx_map s) = Some data ->
    op_spec s (OPop id) (s <| rx_map := dict_del id (rx_map s) |> <| trace := trace s ++ [EPop id data] |>)
| OS_pump_none (idle : bool) a : (if idle then (0 <? n_idle s)%nat else (0 <? n_io s)%nat) = false ->
    op_spec s (OTxPump idle a) s
| OS_pump (idle : bool) a r : (if idle then (0 <? n_idle s)%nat else (0 <? n_io s)%nat) = true ->
    txp_spec a (s <| pend_set := false |>) r -> op_spec s (OTxPump idle a) (pump_done idle (snd r) (fst r))
| OS_rx_not data : is_nil data || negb (rx_alive s) = true -> op_spec s (ORx data) s
(* a read is left as [recv_raw]: its frames are handled under [recv_raw_ind] *)
| OS_rx data : is_nil data || negb (rx_alive s) = false -> op_spec s (ORx data) (rx_done (recv_raw data s))
| OS_eof : rx_alive s = true -> op_spec s ORxEof (do_close' s)
| OS_eof_deaf : rx_alive s = false -> op_spec s ORxEof s
| OS_pq_none : (0 <? n_pq s)%nat = false -> op_spec s OPQ s
| OS_pq r : (0 <? n_pq s)%nat = true -> pq_spec s r -> op_spec s OPQ (pq_done (snd r) (fst r))
| OS_ka_none : ka_due s = None -> op_spec s OFireKa s
| OS_ka_early due : ka_due s = Some due -> (due <=? now s) = false -> op_spec s OFireKa s
| OS_ka due : ka_due s = Some due -> (due <=? now s) = true ->
    op_spec s OFireKa (send_frame' (FMsg MKeepalive) (s <| ka_due := None |>))
| OS_idle_none : idle_due s = None -> op_spec s OFireIdle s
| OS_idle_early due : idle_due s = Some due -> (due <=? now s) = false -> op_spec s OFireIdle s
| OS_idle_close due : idle_due s = Some due -> (due <=? now s) = true -> in_term s = true ->
    op_spec s OFireIdle (do_close' (s <| idle_due := None |>))
| OS_idle_exc due : idle_due s = Some due -> (due <=? now s) = true -> in_term s = false ->
    in_sess s = false -> op_spec s OFireIdle (exc EX_RUNTIME (s <| idle_due := None |>))
| OS_idle_term due : idle_due s = Some due -> (due <=? now s) = true -> in_term s = false ->
    in_sess s = true -> op_spec s OFireIdle (term_sent 1 false (s <| idle_due := None |>)).

Lemma step_spec s o : closed s = false -> op_spec s o (step s o).
Proof.
  intros Hc. destruct o; unfold step; rewrite ?Hc.
  - (* OStart *)
    destruct (state s =? ST_CONNECTING) eqn:E; cbn [negb]; [|apply OS_start_not, E].
    destruct (c_passive (cf s)) eqn:Ep; ep_unf; ep_pr.
    + apply OS_start_passive; assumption.
    + eapply eq_ind; [apply OS_start_active; assumption|]. reflexivity.
  - (* OSend *)
    destruct (in_term s) eqn:E; ep_unf; [apply OS_send_refused, E|].
    ep_pr. eapply eq_ind; [apply OS_send, E|]. reflexivity.
  - (* OTerm *)
    destruct (in_sess s) eqn:Es; cbn [negb]; [|ep_pr; apply OS_term_close, Es].
    rewrite send_sess_term_pr, Es. destruct (in_term s) eqn:Et; cbn [negb andb escape].
    + ep_unf. apply OS_term_again; assumption.
    + apply OS_term; assumption.
  - (* OClose *) ep_pr. apply OS_close.
  - (* OPop *)
    destruct (dict_get id (rx_map s)) as [data|] eqn:E; ep_unf; [|apply OS_pop_none, E].
    eapply eq_ind; [eapply OS_pop, E|]. reflexivity.
  - (* OTxPump *)
    destruct (if idle then _ else _) eqn:E; [|apply OS_pump_none, E]. cbv zeta.
    pose proof (tx_proxy_spec accept (s <| pend_set := false |>)) as H.
    destruct (tx_proxy accept (s <| pend_set := false |>)) as [s1 cont].
    eapply eq_ind; [eapply OS_pump; eassumption|]. cbn [fst snd].
    destruct s1, cont, idle; reflexivity.
  - (* ORx *)
    destruct (is_nil data || negb (rx_alive s)) eqn:E; [apply OS_rx_not, E|].
    eapply eq_ind; [apply OS_rx, E|]. destruct (recv_raw data s) as [s1 [k|]]; reflexivity.
  - (* ORxEof *)
    destruct (rx_alive s) eqn:E; [ep_pr; apply OS_eof, E|apply OS_eof_deaf, E].
  - (* OPQ *)
    destruct (0 <? n_pq s)%nat eqn:E; [|apply OS_pq_none, E].
    pose proof (process_queue_spec s) as H. destruct (process_queue s) as [s1 keep].
    eapply eq_ind; [eapply OS_pq; eassumption|]. cbn [fst snd]. destruct s1, keep; reflexivity.
  - (* OFireKa *)
    destruct (ka_due s) as [due|] eqn:E; [|apply OS_ka_none, E].
    destruct (due <=? now s) eqn:El; [|eapply OS_ka_early; eassumption].
    ep_unf; ep_pr. eapply OS_ka; eassumption.
  - (* OFireIdle *)
    destruct (idle_due s) as [due|] eqn:E; [|apply OS_idle_none, E].
    destruct (due <=? now s) eqn:El; [|eapply OS_idle_early; eassumption].
    cbv zeta. ep_cbn. destruct (in_term s) eqn:Et; [ep_pr; eapply OS_idle_close; eassumption|].
    rewrite send_sess_term_pr. ep_cbn. rewrite Et. destruct (in_sess s) eqn:Es; cbn [negb andb escape].
    + eapply OS_idle_term; eassumption.
    + ep_unf. eapply OS_idle_exc; eassumption.
  - (* OAdvance *) apply OS_advance.
Qed.

(** [P] of the state after an operation on an open endpoint: [P] of every state
    its specification allows.  (The state is a variable there, which is what
    [inversion] of the specification for a given operation needs.) *)
Lemma step_cases (P : ep -> Prop) s o :
  closed s = false -> (forall x, op_spec s o x -> P x) -> P (step s o).
Proof. intros Hc H. apply H, step_spec, Hc. Qed.

(** [send_bundle_data] once the session is terminating: refused with
    RuntimeError, nothing is queued (the state is otherwise unchanged). *)
Lemma send_terminating s d :
  closed s = false -> in_term s = true ->
  step s (OSend d) = emit (EExc EX_RUNTIME) s.
Proof.
  intros Hc Ht. apply (step_cases (fun x => x = _)); [exact Hc|].
  intros x S. inversion S; subst; first [reflexivity|congruence].
Qed.

(** Rewrite with the equations of the case at hand. *)
Ltac rw_hyps := repeat match goal with H : ?l = _ |- context [?l] => rewrite H end.

(** Open the sub-specifications that a case of [op_spec] leaves in the context
    or the goal. *)
Ltac spec_cases :=
  repeat match goal with
  | H : txp_spec _ _ _ |- _ => destruct H
  | H : pq_spec _ _ |- _ => destruct H
  | |- context [send_next ?s] => destruct (send_next_spec s)
  | |- context [seg_result ?fl _ _ _] => unfold seg_result; destruct (has_end fl) eqn:?
  end.

(** * One operation, for invariants *)

(** To show [P] of the state after a read: [Q] holds when the loop is entered
    and is kept by every frame that returns; [P] holds where the loop ends,
    whether it runs dry or a frame lets an exception escape. *)
Lemma recv_raw_ind (Q P : ep -> Prop) data s :
  Q (rx_begin data s) ->
  (forall s0 fr rest s' r, Q s0 -> closed s0 = false ->
     parse_frame (in_conn s0) (rx_buf s0) = Some (fr, rest) ->
     recv_frame fr (rx_taken fr rest s0) = (s', r) ->
     match r with None => Q s' | Some k => P (exc k (s' <| rx_alive := false |>)) end) ->
  (forall s', Q s' -> P s') ->
  P (rx_done (recv_raw data s)).
Proof.
  intros H0 Hf Hq.
  change (recv_raw data s) with (recv_loop (S (length (rx_buf s ++ data))) (rx_begin data s)).
  generalize (S (length (rx_buf s ++ data))). intros fuel.
  pose proof (recv_loop_ind Q (fun s' r => P (rx_done (s', r))) Hq) as L.
  destruct (recv_loop fuel (rx_begin data s)) as [s1 r1] eqn:E.
  specialize (L) with (fuel := fuel) (s := rx_begin data s). rewrite E in L. apply L; [|exact H0].
  intros s0 fr rest s' r J Hc. apply Hf; assumption.
Qed.

(** The same when an escaping frame keeps [Q] as well. *)
Lemma recv_raw_inv (Q P : ep -> Prop) data s :
  Q (rx_begin data s) ->
  (forall s0 fr rest, Q s0 -> closed s0 = false ->
     parse_frame (in_conn s0) (rx_buf s0) = Some (fr, rest) ->
     Q (fst (recv_frame fr (rx_taken fr rest s0)))) ->
  (forall s', Q s' -> P s') ->
  (forall s' k, Q s' -> P (exc k (s' <| rx_alive := false |>))) ->
  P (rx_done (recv_raw data s)).
Proof.
  intros H0 Hf Hq He. apply (recv_raw_ind Q P); [exact H0| |exact Hq].
  intros s0 fr rest s' r J Hc Hp E. pose proof (Hf _ _ _ J Hc Hp) as J'. rewrite E in J'.
  destruct r; [apply He|]; exact J'.
Qed.

(** Operations other than a read and the passing of time. *)
Definition acts (o : op) : bool :=
  match o with ORx _ | OAdvance _ => false | _ => true end.

(** One operation from [s]: [P] of the resulting state follows from what the
    operation is; for a read, [Q] is what holds while its frames are handled. *)
Lemma step_ind_at (P Q : ep -> Prop) s o :
  P s ->
  (forall dt, P (s <| now := now s + dt |>)) ->
  (closed s = false -> acts o = true -> P (step s o)) ->
  (forall data, o = ORx data -> closed s = false -> Q (rx_begin data s)) ->
  (forall s0 fr rest, Q s0 -> closed s0 = false ->
     parse_frame (in_conn s0) (rx_buf s0) = Some (fr, rest) ->
     Q (fst (recv_frame fr (rx_taken fr rest s0)))) ->
  (forall s', Q s' -> P s') ->
  (forall s' k, Q s' -> P (exc k (s' <| rx_alive := false |>))) ->
  P (step s o).
Proof.
  intros J Hadv Hop Hin Hf Hq He.
  destruct (closed s) eqn:Hc; [rewrite step_closed by exact Hc; destruct o; auto|].
  destruct o; try (apply Hop; reflexivity); [|apply Hadv].
  pose proof (step_spec s (ORx data) Hc) as S. revert S.
  generalize (step s (ORx data)). intros s' S. inversion S; subst; [exact J|].
  apply (recv_raw_inv Q P); auto.
Qed.

(** [P] is kept by every operation; [Q] strengthens it while the frames of one
    read are handled. *)
Lemma step_ind (P Q : ep -> Prop) :
  (forall s dt, P s -> P (s <| now := now s + dt |>)) ->
  (forall s o s', P s -> closed s = false -> acts o = true -> op_spec s o s' -> P s') ->
  (forall s data, P s -> closed s = false -> Q (rx_begin data s)) ->
  (forall s fr rest, Q s -> closed s = false ->
     parse_frame (in_conn s) (rx_buf s) = Some (fr, rest) ->
     Q (fst (recv_frame fr (rx_taken fr rest s)))) ->
  (forall s, Q s -> P s) ->
  (forall s k, Q s -> P (exc k (s <| rx_alive := false |>))) ->
  forall s o, P s -> P (step s o).
Proof.
  intros Hadv Hop Hin Hf Hq He s o J. apply (step_ind_at P Q); auto.
  intros Hc Ho. exact (Hop s o _ J Hc Ho (step_spec s o Hc)).
Qed.

(** * One frame, for invariants

    Its cases: by kind, the paths of the contact exchange or of the message
    handler (a rejected message is answered). *)
Ltac frame_cases f s :=
  let c := fresh "c" in let m := fresh "m" in
  destruct f as [c|m];
  [destruct (recv_contact_spec c s)|rewrite (recv_msg_pr m s); destruct (handle_msg_spec m s)];
  spec_cases.

(** What no frame touches. *)
Lemma frame_keeps f s :
  cf (fst (recv_frame f s)) = cf s /\ handled (fst (recv_frame f s)) = handled s
  /\ rx_buf (fst (recv_frame f s)) = rx_buf s /\ rx_alive (fst (recv_frame f s)) = rx_alive s
  /\ now (fst (recv_frame f s)) = now s /\ t_recv (fst (recv_frame f s)) = t_recv s.
Proof. frame_cases f s; ep_cbn; repeat split. Qed.

(** The configuration never changes. *)
Lemma step_cf s o : cf (step s o) = cf s.
Proof.
  apply (step_ind_at (fun s' => cf s' = cf s) (fun s' => cf s' = cf s)); try reflexivity; try (intros; assumption).
  - intros Hc Ho. destruct (step_spec s o Hc); try discriminate Ho; spec_cases; reflexivity.
  - intros s0 fr rest H _ _. rewrite (proj1 (frame_keeps fr _)). exact H.
Qed.

Lemma cf_run c ops : cf (run c ops) = c.
Proof. apply (run_invariant (fun s => cf s = c)); [reflexivity|]. intros s o H. rewrite step_cf. exact H. Qed.
