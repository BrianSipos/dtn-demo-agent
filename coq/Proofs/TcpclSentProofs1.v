(** TCPCL endpoint model: one constant [setter_f] per field of [ep].  In a file
    that imports this one, the [Setter] instance of a record update
    [s <| f := v |>] resolves to [setter_f] instead of the term the [settable!]
    notation builds, so that goals over chains of updates stay small;
    the term is convertible to the one a file without this import gets, but not
    syntactically equal to it ([ep_cbn] of [TcpclSessSpec] opens both).  The
    model's functions written over the setters ([send_next_c], [step_c], ...)
    and the equations after them are used by no proof. *)
From Coq Require Import NArith List Bool.
From RecordUpdate Require Import RecordSet.
From DTN Require Import Lib.Bytes Model.TcpclMsg Model.TcpclSess.
Import ListNotations RecordSetNotations.
Local Open Scope N_scope.

(** * Compact setters: the record updates of the model, folded *)
Definition setter_cf : Setter cf := _.
Definition setter_now : Setter now := _.
Definition setter_closed : Setter closed := _.
Definition setter_rx_alive : Setter rx_alive := _.
Definition setter_conn_tx : Setter conn_tx := _.
Definition setter_io_set : Setter io_set := _.
Definition setter_pend_set : Setter pend_set := _.
Definition setter_n_io : Setter n_io := _.
Definition setter_n_idle : Setter n_idle := _.
Definition setter_state : Setter state := _.
Definition setter_in_conn : Setter in_conn := _.
Definition setter_in_sess : Setter in_sess := _.
Definition setter_in_term : Setter in_term := _.
Definition setter_conhead_this : Setter conhead_this := _.
Definition setter_conhead_peer : Setter conhead_peer := _.
Definition setter_sessinit_this : Setter sessinit_this := _.
Definition setter_sessinit_peer : Setter sessinit_peer := _.
Definition setter_rx_buf : Setter rx_buf := _.
Definition setter_msg_tx : Setter msg_tx := _.
Definition setter_keepalive_time : Setter keepalive_time := _.
Definition setter_idle_time : Setter idle_time := _.
Definition setter_ka_due : Setter ka_due := _.
Definition setter_idle_due : Setter idle_due := _.
Definition setter_seg_size : Setter seg_size := _.
Definition setter_next_id : Setter next_id := _.
Definition setter_pend_start : Setter pend_start := _.
Definition setter_pend_ack : Setter pend_ack := _.
Definition setter_tx_map : Setter tx_map := _.
Definition setter_tx_tmp : Setter tx_tmp := _.
Definition setter_tx_len : Setter tx_len := _.
Definition setter_pq_set : Setter pq_set := _.
Definition setter_n_pq : Setter n_pq := _.
Definition setter_rx_tmp : Setter rx_tmp := _.
Definition setter_rx_map : Setter rx_map := _.
Definition setter_sent : Setter sent := _.
Definition setter_handled : Setter handled := _.
Definition setter_t_send : Setter t_send := _.
Definition setter_t_recv : Setter t_recv := _.
Definition setter_wire : Setter wire := _.
Definition setter_trace : Setter trace := _.
#[export] Existing Instances setter_cf setter_now setter_closed setter_rx_alive setter_conn_tx setter_io_set setter_pend_set setter_n_io setter_n_idle setter_state setter_in_conn setter_in_sess setter_in_term setter_conhead_this setter_conhead_peer setter_sessinit_this setter_sessinit_peer setter_rx_buf setter_msg_tx setter_keepalive_time setter_idle_time setter_ka_due setter_idle_due setter_seg_size setter_next_id setter_pend_start setter_pend_ack setter_tx_map setter_tx_tmp setter_tx_len setter_pq_set setter_n_pq setter_rx_tmp setter_rx_map setter_sent setter_handled setter_t_send setter_t_recv setter_wire setter_trace | 0.

Definition send_sess_term_c := ltac:(let t := eval cbv delta [send_sess_term] in send_sess_term in let t := eval fold setter_cf setter_now setter_closed setter_rx_alive setter_conn_tx setter_io_set setter_pend_set setter_n_io setter_n_idle setter_state setter_in_conn setter_in_sess setter_in_term setter_conhead_this setter_conhead_peer setter_sessinit_this setter_sessinit_peer setter_rx_buf setter_msg_tx setter_keepalive_time setter_idle_time setter_ka_due setter_idle_due setter_seg_size setter_next_id setter_pend_start setter_pend_ack setter_tx_map setter_tx_tmp setter_tx_len setter_pq_set setter_n_pq setter_rx_tmp setter_rx_map setter_sent setter_handled setter_t_send setter_t_recv setter_wire setter_trace in t in exact t).
Lemma send_sess_term_c_eq : send_sess_term = send_sess_term_c.
Proof. reflexivity. Qed.
Definition send_next_c := ltac:(let t := eval cbv delta [send_next] in send_next in let t := eval fold setter_cf setter_now setter_closed setter_rx_alive setter_conn_tx setter_io_set setter_pend_set setter_n_io setter_n_idle setter_state setter_in_conn setter_in_sess setter_in_term setter_conhead_this setter_conhead_peer setter_sessinit_this setter_sessinit_peer setter_rx_buf setter_msg_tx setter_keepalive_time setter_idle_time setter_ka_due setter_idle_due setter_seg_size setter_next_id setter_pend_start setter_pend_ack setter_tx_map setter_tx_tmp setter_tx_len setter_pq_set setter_n_pq setter_rx_tmp setter_rx_map setter_sent setter_handled setter_t_send setter_t_recv setter_wire setter_trace in t in exact t).
Lemma send_next_c_eq : send_next = send_next_c.
Proof. reflexivity. Qed.
Definition process_queue_c := ltac:(let t := eval cbv delta [process_queue] in process_queue in let t := eval fold setter_cf setter_now setter_closed setter_rx_alive setter_conn_tx setter_io_set setter_pend_set setter_n_io setter_n_idle setter_state setter_in_conn setter_in_sess setter_in_term setter_conhead_this setter_conhead_peer setter_sessinit_this setter_sessinit_peer setter_rx_buf setter_msg_tx setter_keepalive_time setter_idle_time setter_ka_due setter_idle_due setter_seg_size setter_next_id setter_pend_start setter_pend_ack setter_tx_map setter_tx_tmp setter_tx_len setter_pq_set setter_n_pq setter_rx_tmp setter_rx_map setter_sent setter_handled setter_t_send setter_t_recv setter_wire setter_trace in t in exact t).
Lemma process_queue_c_eq : process_queue = process_queue_c.
Proof. reflexivity. Qed.
Definition merge_session_params_c := ltac:(let t := eval cbv delta [merge_session_params] in merge_session_params in let t := eval fold setter_cf setter_now setter_closed setter_rx_alive setter_conn_tx setter_io_set setter_pend_set setter_n_io setter_n_idle setter_state setter_in_conn setter_in_sess setter_in_term setter_conhead_this setter_conhead_peer setter_sessinit_this setter_sessinit_peer setter_rx_buf setter_msg_tx setter_keepalive_time setter_idle_time setter_ka_due setter_idle_due setter_seg_size setter_next_id setter_pend_start setter_pend_ack setter_tx_map setter_tx_tmp setter_tx_len setter_pq_set setter_n_pq setter_rx_tmp setter_rx_map setter_sent setter_handled setter_t_send setter_t_recv setter_wire setter_trace in t in exact t).
Lemma merge_session_params_c_eq : merge_session_params = merge_session_params_c.
Proof. reflexivity. Qed.
Definition handle_msg_c := ltac:(let t := eval cbv delta [handle_msg] in handle_msg in let t := eval fold setter_cf setter_now setter_closed setter_rx_alive setter_conn_tx setter_io_set setter_pend_set setter_n_io setter_n_idle setter_state setter_in_conn setter_in_sess setter_in_term setter_conhead_this setter_conhead_peer setter_sessinit_this setter_sessinit_peer setter_rx_buf setter_msg_tx setter_keepalive_time setter_idle_time setter_ka_due setter_idle_due setter_seg_size setter_next_id setter_pend_start setter_pend_ack setter_tx_map setter_tx_tmp setter_tx_len setter_pq_set setter_n_pq setter_rx_tmp setter_rx_map setter_sent setter_handled setter_t_send setter_t_recv setter_wire setter_trace in t in exact t).
Lemma handle_msg_c_eq : handle_msg = handle_msg_c.
Proof. reflexivity. Qed.
Definition recv_frame_c := ltac:(let t := eval cbv delta [recv_frame] in recv_frame in let t := eval fold setter_cf setter_now setter_closed setter_rx_alive setter_conn_tx setter_io_set setter_pend_set setter_n_io setter_n_idle setter_state setter_in_conn setter_in_sess setter_in_term setter_conhead_this setter_conhead_peer setter_sessinit_this setter_sessinit_peer setter_rx_buf setter_msg_tx setter_keepalive_time setter_idle_time setter_ka_due setter_idle_due setter_seg_size setter_next_id setter_pend_start setter_pend_ack setter_tx_map setter_tx_tmp setter_tx_len setter_pq_set setter_n_pq setter_rx_tmp setter_rx_map setter_sent setter_handled setter_t_send setter_t_recv setter_wire setter_trace in t in exact t).
Lemma recv_frame_c_eq : recv_frame = recv_frame_c.
Proof. reflexivity. Qed.
Definition recv_raw_c := ltac:(let t := eval cbv delta [recv_raw] in recv_raw in let t := eval fold setter_cf setter_now setter_closed setter_rx_alive setter_conn_tx setter_io_set setter_pend_set setter_n_io setter_n_idle setter_state setter_in_conn setter_in_sess setter_in_term setter_conhead_this setter_conhead_peer setter_sessinit_this setter_sessinit_peer setter_rx_buf setter_msg_tx setter_keepalive_time setter_idle_time setter_ka_due setter_idle_due setter_seg_size setter_next_id setter_pend_start setter_pend_ack setter_tx_map setter_tx_tmp setter_tx_len setter_pq_set setter_n_pq setter_rx_tmp setter_rx_map setter_sent setter_handled setter_t_send setter_t_recv setter_wire setter_trace in t in exact t).
Lemma recv_raw_c_eq : recv_raw = recv_raw_c.
Proof. reflexivity. Qed.
Definition tx_proxy_c := ltac:(let t := eval cbv delta [tx_proxy] in tx_proxy in let t := eval fold setter_cf setter_now setter_closed setter_rx_alive setter_conn_tx setter_io_set setter_pend_set setter_n_io setter_n_idle setter_state setter_in_conn setter_in_sess setter_in_term setter_conhead_this setter_conhead_peer setter_sessinit_this setter_sessinit_peer setter_rx_buf setter_msg_tx setter_keepalive_time setter_idle_time setter_ka_due setter_idle_due setter_seg_size setter_next_id setter_pend_start setter_pend_ack setter_tx_map setter_tx_tmp setter_tx_len setter_pq_set setter_n_pq setter_rx_tmp setter_rx_map setter_sent setter_handled setter_t_send setter_t_recv setter_wire setter_trace in t in exact t).
Lemma tx_proxy_c_eq : tx_proxy = tx_proxy_c.
Proof. reflexivity. Qed.
Definition step_c := ltac:(let t := eval cbv delta [step] in step in let t := eval fold setter_cf setter_now setter_closed setter_rx_alive setter_conn_tx setter_io_set setter_pend_set setter_n_io setter_n_idle setter_state setter_in_conn setter_in_sess setter_in_term setter_conhead_this setter_conhead_peer setter_sessinit_this setter_sessinit_peer setter_rx_buf setter_msg_tx setter_keepalive_time setter_idle_time setter_ka_due setter_idle_due setter_seg_size setter_next_id setter_pend_start setter_pend_ack setter_tx_map setter_tx_tmp setter_tx_len setter_pq_set setter_n_pq setter_rx_tmp setter_rx_map setter_sent setter_handled setter_t_send setter_t_recv setter_wire setter_trace in t in exact t).
Lemma step_c_eq : step = step_c.
Proof. reflexivity. Qed.

Lemma ep_eta (s : ep) : s = mkEp (cf s) (now s) (closed s) (rx_alive s) (conn_tx s) (io_set s) (pend_set s)
  (n_io s) (n_idle s) (state s) (in_conn s) (in_sess s) (in_term s) (conhead_this s) (conhead_peer s)
  (sessinit_this s) (sessinit_peer s) (rx_buf s) (msg_tx s) (keepalive_time s) (idle_time s) (ka_due s)
  (idle_due s) (seg_size s) (next_id s) (pend_start s) (pend_ack s) (tx_map s) (tx_tmp s) (tx_len s)
  (pq_set s) (n_pq s) (rx_tmp s) (rx_map s) (sent s) (handled s) (t_send s) (t_recv s) (wire s) (trace s).
Proof. destruct s; reflexivity. Qed.

Definition ka_next (s : ep) : option N :=
  if 0 <? keepalive_time s then Some (now s + keepalive_time s * 1000) else None.

Lemma ka_reset_eq s : ka_reset s = s <| ka_due := ka_next s |>.
Proof. reflexivity. Qed.

Lemma send_msg_eq m s : send_msg m s = send_frame (FMsg m) s.
Proof. reflexivity. Qed.

Definition sess_init_msg (c : cfg) : msg :=
  MSessInit (c_keepalive c) (c_seg_mru c) (2^64 - 1) (c_nodeid c) [].

Lemma send_sess_init_eq s : send_sess_init s =
  (send_frame (FMsg (sess_init_msg (cf s))) s) <| sessinit_this := Some (my_sessinit s) |>.
Proof. reflexivity. Qed.

Lemma emit_eq e s : emit e s = s <| trace := trace s ++ [e] |>.
Proof. reflexivity. Qed.
