(** The framing development (Proofs/FrameProofs.v, Proofs/TcpclMsgProofs.v)
    tied to the session model [Model/TcpclSess.v]:

    - consumption invariant: every octet an endpoint has read is either part
      of a frame it acted on (and those frames re-encode to exactly the
      consumed octets) or still in its receive buffer;
    - shape of the acted-on sequence: empty, or a contact header followed by
      messages only, all well-formed;
    - the channel lemma: if what B has read is a prefix of what A's socket
      accepted, the frames B acted on are a prefix of the frames A sent
      (reliable FIFO message channel, for every schedule / chunking /
      back-pressure pattern of both endpoints; three facts about what A sent
      are premises, see [channel]);
    - session-level split invariance: two socket reads are one for the frames
      acted on and the octets kept, if both ways leave the endpoint open and
      listening; for the whole state it fails ([session_two_reads_refuted]). *)
From Coq Require Import ZArith NArith List Bool Lia.
From RecordUpdate Require Import RecordSet.
From DTN Require Import Lib.Bytes Model.TcpclMsg Model.TcpclSess Proofs.TcpclSessBasics
  Proofs.TcpclMsgProofs Proofs.TcpclSessSpec.
Import ListNotations RecordSetNotations.
Local Open Scope N_scope.

Definition rx_view (s : ep) := (handled s, rx_buf s, rx_alive s, in_conn s).

Lemma rx_view_inj a b : rx_view a = rx_view b ->
  handled a = handled b /\ rx_buf a = rx_buf b /\ rx_alive a = rx_alive b /\ in_conn a = in_conn b.
Proof. unfold rx_view. intros H. injection H as H1 H2 H3 H4. auto. Qed.

Lemma frame_in_conn f s : let r := recv_frame f s in
  match f with
  | FMsg _ => in_conn (fst r) = in_conn s
  | FContact _ => snd r = None -> in_conn (fst r) = true \/ closed (fst r) = true
  end.
Proof.
  cbv zeta. destruct f as [c|m].
  - destruct (recv_contact_spec c s); ep_cbn; auto; discriminate.
  - rewrite recv_msg_pr. destruct (handle_msg_spec m s); spec_cases; reflexivity.
Qed.

Definition is_rx (o : op) : bool := match o with ORx _ => true | _ => false end.

Lemma rx_view_step_other s o : is_rx o = false -> rx_view (step s o) = rx_view s.
Proof.
  intros Ho. destruct (closed s) eqn:Hc; [rewrite step_closed by exact Hc; destruct o; reflexivity|].
  destruct (step_spec s o Hc); try discriminate Ho; spec_cases; reflexivity.
Qed.

Lemma step_rx s data : step s (ORx data) =
  if closed s || is_nil data || negb (rx_alive s) then s else rx_done (recv_raw data s).
Proof.
  unfold step. destruct (closed s); [reflexivity|]. cbn [orb]. destruct (is_nil data || negb (rx_alive s)); [reflexivity|].
  destruct (recv_raw data s) as [s1 [k|]]; reflexivity.
Qed.

Lemma closed_step s o : closed s = true -> closed (step s o) = true.
Proof. intros H. rewrite step_closed by exact H. destruct o; exact H. Qed.

(** The octets of the socket reads that take effect along a run from [s]. *)
Fixpoint received_from (s : ep) (ops : list op) : bytes :=
  match ops with
  | [] => []
  | o :: r =>
      (match o with
       | ORx d => if negb (closed s) && rx_alive s then d else []
       | _ => []
       end) ++ received_from (step s o) r
  end.
Definition received (s0 : ep) (ops : list op) : bytes := received_from s0 ops.

Definition enc (l : list frame) : bytes := concat (map encode_frame l).

Lemma enc_snoc l f : enc (l ++ [f]) = enc l ++ encode_frame f.
Proof. unfold enc. rewrite map_app, concat_app. cbn [map concat]. rewrite app_nil_r. reflexivity. Qed.

Definition shape (l : list frame) : Prop := l = [] \/ exists c ms, l = FContact c :: map FMsg ms.

Definition buf_inv (s : ep) : Prop :=
  shape (handled s) /\ (in_conn s = true -> handled s <> []) /\ Forall wf_frame (handled s) /\ wf_bytes (rx_buf s).

(** While the frames of one read are handled: in the contact phase nothing
    has been acted on, unless the endpoint closed. *)
Definition loop_inv (s : ep) : Prop :=
  buf_inv s /\ (in_conn s = false -> handled s = [] \/ closed s = true).

Lemma frame_consumes x fr rest :
  loop_inv x -> closed x = false -> parse_frame (in_conn x) (rx_buf x) = Some (fr, rest) ->
  let r := recv_frame fr (rx_taken fr rest x) in
  buf_inv (fst r) /\ (snd r = None -> in_conn (fst r) = false -> handled (fst r) = [] \/ closed (fst r) = true)
  /\ enc (handled (fst r)) ++ rx_buf (fst r) = enc (handled x) ++ rx_buf x.
Proof.
  intros ((Sh & NE & Wf & Wb) & G) NC P. cbv zeta.
  apply frame_parse_sound in P; [|exact Wb]. destruct P as (EB & [Wfr Ph] & Wrest).
  destruct (frame_keeps fr (rx_taken fr rest x)) as (_ & V1 & V2 & _).
  pose proof (frame_in_conn fr (rx_taken fr rest x)) as V5.
  cbv zeta in V5. cbn [rx_taken handled rx_buf in_conn set] in V1, V2, V5.
  split; [|split].
  - unfold buf_inv. rewrite V1, V2. destruct fr as [c|m].
    + (* contact header: the receiver was in the contact phase and had acted on nothing *)
      destruct (G Ph) as [HN|HC]; [|congruence]. rewrite HN. cbn [app]. repeat split.
      * right. exists c, []. reflexivity.
      * discriminate.
      * constructor; [exact Wfr|constructor].
      * exact Wrest.
    + (* message: the receiver is in the message phase *)
      destruct Sh as [HN|(c & ms & HS)]; [exfalso; exact (NE Ph HN)|]. repeat split.
      * right. exists c, (ms ++ [m]). rewrite HS, map_app. reflexivity.
      * intros _ HN. destruct (handled x); discriminate.
      * apply Forall_app. split; [exact Wf|constructor; [exact Wfr|constructor]].
      * exact Wrest.
  - destruct fr as [c|m]; intros E1 IC.
    + destruct (V5 E1) as [T|C]; [congruence|right; exact C].
    + rewrite V5, Ph in IC. discriminate.
  - rewrite V1, V2, enc_snoc, EB, <- app_assoc. reflexivity.
Qed.

(** The invariant of reachable states. *)
Definition consume_inv (s : ep) : Prop :=
  buf_inv s /\ (in_conn s = false -> handled s = [] \/ closed s = true \/ rx_alive s = false).

Lemma consume_inv_init c : consume_inv (init c).
Proof.
  unfold consume_inv, buf_inv, init. cbn [handled rx_buf in_conn]. split.
  - split; [left; reflexivity|]. split; [discriminate|]. split; constructor.
  - intros _. left. reflexivity.
Qed.

Lemma step_consume s o :
  consume_inv s -> wf_bytes (received_from s [o]) ->
  consume_inv (step s o) /\ enc (handled (step s o)) ++ rx_buf (step s o) = enc (handled s) ++ rx_buf s ++ received_from s [o].
Proof.
  intros I0 W. pose proof I0 as [L G]. cbn [received_from] in *. rewrite app_nil_r in *.
  destruct (is_rx o) eqn:R.
  2:{ pose proof (rx_view_step_other s o R) as C. destruct (rx_view_inj _ _ C) as (H1 & H2 & H3 & H4).
      assert (received_nil : match o with ORx d => if negb (closed s) && rx_alive s then d else [] | _ => [] end = [])
        by (destruct o; try reflexivity; discriminate R).
      rewrite received_nil, app_nil_r, H1, H2. split; [|reflexivity].
      unfold consume_inv, buf_inv. rewrite H1, H2, H3, H4. split; [exact L|].
      intros IC. destruct (G IC) as [A|[A|A]]; auto. right. left. apply closed_step. exact A. }
  destruct o; try discriminate R. rewrite step_rx.
  destruct (closed s) eqn:C; cbn [negb andb orb] in *.
  { rewrite app_nil_r. split; [exact I0|reflexivity]. }
  destruct (rx_alive s) eqn:A.
  2:{ rewrite orb_true_r, app_nil_r. split; [exact I0|reflexivity]. }
  destruct data as [|x data']; cbn [is_nil negb orb].
  { rewrite app_nil_r. split; [exact I0|reflexivity]. }
  set (data := x :: data') in *.
  apply (recv_raw_ind
    (fun y => loop_inv y /\ enc (handled y) ++ rx_buf y = enc (handled s) ++ rx_buf s ++ data)
    (fun y => consume_inv y /\ enc (handled y) ++ rx_buf y = enc (handled s) ++ rx_buf s ++ data)).
  - split; [|reflexivity]. destruct L as (Sh & NE & Wf & Wb). split.
    + repeat split; auto. apply wf_bytes_app. split; assumption.
    + intros IC. destruct (G IC) as [H|[H|H]]; [left; exact H|congruence|congruence].
  - intros s0 fr rest s' r [LI E] NC Pf RF.
    destruct (frame_consumes s0 fr rest LI NC Pf) as (B1 & G1 & E1). rewrite RF in B1, G1, E1. cbn [fst snd] in B1, G1, E1.
    rewrite <- E, <- E1. destruct r as [k|]; (split; [split; [exact B1|]|reflexivity]).
    + intros _. right. right. reflexivity.
    + exact (G1 eq_refl).
  - intros s' [[B Gq] E]. split; [split; [exact B|]|exact E]. intros IC. destruct (Gq IC); auto.
Qed.

Lemma received_from_app : forall l1 l2 s,
  received_from s (l1 ++ l2) = received_from s l1 ++ received_from (fold_left step l1 s) l2.
Proof.
  induction l1 as [|o l1 IH]; intros l2 s; [reflexivity|].
  cbn [app fold_left received_from]. rewrite IH, app_assoc. reflexivity.
Qed.

Lemma consume_run c ops :
  wf_bytes (received (init c) ops) ->
  consume_inv (run c ops) /\ received (init c) ops = enc (handled (run c ops)) ++ rx_buf (run c ops).
Proof.
  induction ops as [|o ops IH] using rev_ind; intros W.
  - split; [apply consume_inv_init|reflexivity].
  - unfold received in *. rewrite received_from_app in *. fold (run c ops) in *. rewrite run_snoc.
    apply wf_bytes_app in W. destruct W as [W1 W2].
    destruct (IH W1) as [I E]. destruct (step_consume _ o I W2) as [I' E'].
    split; [exact I'|]. rewrite E', app_assoc, <- E. reflexivity.
Qed.

(** Every octet that was read is part of a frame that was acted on -- and the
    frames acted on re-encode to exactly the octets consumed -- or is still in
    the receive buffer. *)
Theorem consumption : forall c ops,
  wf_bytes (received (init c) ops) ->
  received (init c) ops = enc (handled (run c ops)) ++ rx_buf (run c ops).
Proof. intros c ops W. apply consume_run, W. Qed.

(** The frames acted on: well-formed; none, or a contact header followed by
    messages only; and while the endpoint is still in the contact phase it has
    acted on nothing -- unless it closed or went deaf on the very first frame. *)
Theorem handled_shape : forall c ops,
  wf_bytes (received (init c) ops) ->
  let s := run c ops in
  Forall wf_frame (handled s)
  /\ (handled s = [] \/ exists h ms, handled s = FContact h :: map FMsg ms)
  /\ (in_conn s = true -> handled s <> [])
  /\ (in_conn s = false -> handled s = [] \/ closed s = true \/ rx_alive s = false)
  /\ wf_bytes (rx_buf s).
Proof.
  intros c ops W. destruct (consume_run c ops W) as [[(Sh & NE & Wf & Wb) G] _].
  cbv zeta. auto.
Qed.

Definition is_prefix {A} (l1 l2 : list A) : Prop := exists m, l2 = l1 ++ m.

(** A frame sequence as a receiver starting in phase [ph] would accept it:
    the first frame in phase [ph], every later one in the message phase. *)
Fixpoint wfseq (ph : bool) (l : list frame) : Prop :=
  match l with
  | [] => True
  | f :: r => accepts ph f /\ wfseq true r
  end.

Lemma wfseq_msgs ms : Forall wf_frame (map FMsg ms) -> wfseq true (map FMsg ms).
Proof.
  induction ms as [|m ms IH]; intros W; cbn [map wfseq]; [exact I|].
  inversion W; subst. split; [split; [assumption|reflexivity]|]. apply IH. assumption.
Qed.

Lemma wfseq_shape l : shape l -> Forall wf_frame l -> wfseq false l.
Proof.
  intros [->|(c & ms & ->)] W; [exact I|]. inversion W; subst. cbn [wfseq].
  split; [split; [assumption|reflexivity]|]. apply wfseq_msgs. assumption.
Qed.

Lemma encode_frame_nonempty f : encode_frame f <> [].
Proof.
  destruct f as [c|m]; [|apply encode_nonempty]. intros E. apply (f_equal (@length N)) in E.
  unfold encode_frame, encode_contact in E. rewrite !app_length, !be_length in E. cbn [length] in E. lia.
Qed.

(** Unique decodability of frame sequences: of two accepted sequences whose
    encodings agree as far as both go, one is a prefix of the other, and the
    octets after it begin with the encoding of the other's remaining frames. *)
Lemma frames_comparable : forall l1 l2 ph x y,
  wfseq ph l1 -> wfseq ph l2 -> enc l1 ++ x = enc l2 ++ y ->
  (exists m, l2 = l1 ++ m /\ x = enc m ++ y) \/ (exists m, l1 = l2 ++ m /\ y = enc m ++ x).
Proof.
  induction l1 as [|f r IH]; intros l2 ph x y W1 W2 E.
  - left. exists l2. split; [reflexivity|exact E].
  - destruct l2 as [|g t]; [right; exists (f :: r); split; [reflexivity|symmetry; exact E]|].
    destruct W1 as [A1 W1]. destruct W2 as [A2 W2].
    unfold enc in E. cbn [map concat] in E. rewrite <- !app_assoc in E.
    destruct (frame_prefix_free ph f g _ _ A1 A2 E) as [<- E'].
    destruct (IH t true x y W1 W2 E') as [(m & -> & Em)|(m & -> & Em)]; [left|right]; exists m; split; auto.
Qed.

(** If the encoding of one is a prefix of the encoding of the other, the
    first sequence is a prefix of the second: no frame encodes to nothing. *)
Lemma frames_prefix : forall l1 l2 ph x,
  wfseq ph l1 -> wfseq ph l2 -> enc l1 ++ x = enc l2 -> is_prefix l1 l2.
Proof.
  intros l1 l2 ph x W1 W2 E. rewrite <- (app_nil_r (enc l2)) in E.
  destruct (frames_comparable _ _ _ _ _ W1 W2 E) as [(m & -> & _)|([|f m] & -> & Em)];
    [exists m; reflexivity|exists []; rewrite !app_nil_r; reflexivity|].
  symmetry in Em. unfold enc in Em. cbn [map concat] in Em. rewrite <- app_assoc in Em.
  apply app_eq_nil in Em. destruct (encode_frame_nonempty f (proj1 Em)).
Qed.

(** Reliable FIFO message channel: if what B has read is a prefix of what A's
    socket has accepted, the frames B acted on are a prefix of the frames A
    sent -- for all operation lists of both endpoints.  The three premises
    about A are theorems of the sender side, proved where its invariants are:
    [sent_accounting] (Proofs/TcpclSentProofs5.v: every octet written comes
    from the encoding of a sent frame, in order), [sent_wf] (TcpclSentProofs15,
    under bounds on configuration and operations) and [contact_first_map]
    (TcpclSentProofs7); [channel_closed] (TcpclSentProofs16) is this theorem
    with them discharged. *)
Theorem channel : forall cA opsA cB opsB,
  (exists rest, wire (run cA opsA) = received (init cB) opsB ++ rest) ->
  wire (run cA opsA) ++ conn_tx (run cA opsA) ++ msg_tx (run cA opsA) = enc (sent (run cA opsA)) ->
  Forall wf_frame (sent (run cA opsA)) ->
  shape (sent (run cA opsA)) ->
  is_prefix (handled (run cB opsB)) (sent (run cA opsA)).
Proof.
  intros cA opsA cB opsB [rest HW] ACC WF SH.
  set (sA := run cA opsA) in *.
  assert (WE : wf_bytes (enc (sent sA))).
  { clear -WF. induction (sent sA) as [|f l IH]; [constructor|]. inversion WF; subst.
    unfold enc. cbn [map concat]. apply wf_bytes_app. split; [apply encode_frame_wf; assumption|apply IH; assumption]. }
  assert (WR : wf_bytes (received (init cB) opsB)).
  { rewrite <- ACC, HW in WE. apply wf_bytes_app in WE. destruct WE as [WE _].
    apply wf_bytes_app in WE. tauto. }
  pose proof (consumption cB opsB WR) as CON.
  destruct (handled_shape cB opsB WR) as (WfB & ShB & _).
  apply frames_prefix with (ph := false) (x := rx_buf (run cB opsB) ++ rest ++ conn_tx sA ++ msg_tx sA).
  - apply wfseq_shape; assumption.
  - apply wfseq_shape; assumption.
  - rewrite <- ACC, HW, CON, <- !app_assoc. reflexivity.
Qed.

Lemma parse_frame_nil ph : parse_frame ph [] = None.
Proof. destruct ph; reflexivity. Qed.

(** The receive loop runs to completion: it only stops on an exception, on a
    closed connection, or when no complete frame is left. *)
Lemma recv_loop_quiescent : forall fuel s s' e,
  (length (rx_buf s) < fuel)%nat -> recv_loop fuel s = (s', e) ->
  e <> None \/ closed s' = true \/ parse_frame (in_conn s') (rx_buf s') = None.
Proof.
  induction fuel as [|fuel IH]; intros s s' e F E; [lia|]. cbn [recv_loop] in E.
  destruct (is_nil (rx_buf s) || closed s) eqn:Stop.
  { injection E as <- <-. apply orb_true_iff in Stop. destruct Stop as [N|C]; [|auto].
    right. right. destruct (rx_buf s); [apply parse_frame_nil|discriminate N]. }
  destruct (parse_frame (in_conn s) (rx_buf s)) as [[fr rest]|] eqn:P; [|injection E as <- <-; auto].
  apply frame_parse_shrinks in P.
  set (s0 := s <| rx_buf := rest |> <| handled := handled s ++ [fr] |>) in E.
  destruct (frame_keeps fr s0) as (_ & _ & V2 & _).
  destruct (recv_frame fr s0) as [s1 e1]. cbn [fst] in V2. change (rx_buf s0) with rest in V2.
  destruct e1 as [k|]; [injection E as <- <-; left; discriminate|].
  apply (IH s1 s' e); [rewrite V2; lia|exact E].
Qed.

(** Nothing more will be taken off the buffer as it stands. *)
Definition quiescent (s : ep) : Prop :=
  closed s = true \/ rx_alive s = false \/ parse_frame (in_conn s) (rx_buf s) = None.

Lemma quiescent_step s o : quiescent s -> quiescent (step s o).
Proof.
  intros H. destruct (is_rx o) eqn:R.
  2:{ destruct (rx_view_inj _ _ (rx_view_step_other s o R)) as (_ & H2 & H3 & H4). unfold quiescent. rewrite H2, H3, H4.
      destruct H as [C|H]; [left; apply closed_step; exact C|right; exact H]. }
  destruct o; try discriminate R. rewrite step_rx.
  destruct (closed s || is_nil data || negb (rx_alive s)); [exact H|].
  change (recv_raw data s) with (recv_loop (S (length (rx_buf s ++ data))) (rx_begin data s)).
  destruct (recv_loop _ (rx_begin data s)) as [s1 e] eqn:E.
  apply recv_loop_quiescent in E; [|cbn [rx_begin rx_buf set]; lia].
  destruct e as [k|]; [right; left; reflexivity|].
  destruct E as [E|E]; [congruence|]. unfold quiescent, rx_done. tauto.
Qed.

Lemma quiescent_run c ops : quiescent (run c ops).
Proof. apply run_invariant; [right; right; reflexivity|intros; apply quiescent_step; assumption]. Qed.

Lemma closed_step_inv s o : closed (step s o) = false -> closed s = false.
Proof. intros H. destruct (closed s) eqn:C; [|reflexivity]. rewrite (closed_step s o C) in H. discriminate. Qed.

Lemma alive_step_inv s o : rx_alive (step s o) = true -> rx_alive s = true.
Proof.
  apply (step_ind_at (fun x => rx_alive x = true -> rx_alive s = true) (fun x => rx_alive x = rx_alive s));
    [auto|auto| | | |congruence|discriminate].
  - intros _ Ho. destruct (rx_view_inj _ _ (rx_view_step_other s o ltac:(destruct o; try reflexivity; discriminate Ho))) as (_ & _ & H3 & _).
    congruence.
  - reflexivity.
  - intros s0 fr rest H0 _ _. destruct (frame_keeps fr (rx_taken fr rest s0)) as (_ & _ & _ & V3 & _). rewrite V3. exact H0.
Qed.

Lemma map_FMsg_elt l a f b : map FMsg l = a ++ f :: b -> exists m, f = FMsg m.
Proof.
  intros E. assert (I : In f (map FMsg l)) by (rewrite E; apply in_elt).
  apply in_map_iff in I. destruct I as (m & <- & _). exists m. reflexivity.
Qed.

(** An endpoint that is open and listening has acted on every complete frame
    it has read: the octets it keeps do not start with another acceptable frame. *)
Lemma no_next_frame s m z :
  consume_inv s -> quiescent s -> closed s = false -> rx_alive s = true ->
  shape (handled s ++ m) -> Forall wf_frame (handled s ++ m) ->
  rx_buf s = enc m ++ z -> m = [].
Proof.
  intros [(Sh & NE & _ & _) G] Hq C A Sh2 Wf2 EB. destruct m as [|f m]; [reflexivity|exfalso].
  unfold enc in EB. cbn [map concat] in EB. rewrite <- app_assoc in EB.
  apply Forall_app in Wf2. destruct Wf2 as [_ Wf2]. inversion Wf2 as [|? ? Wf _]; subst.
  assert (AC : accepts (in_conn s) f).
  { destruct Sh as [HN|(c & ms & HS)].
    - rewrite HN in *. cbn [app] in Sh2. destruct Sh2 as [Ab|(c & ms & E2)]; [discriminate|].
      injection E2 as -> _. split; [exact Wf|].
      destruct (in_conn s) eqn:IC; [exfalso; exact (NE eq_refl eq_refl)|reflexivity].
    - rewrite HS in *. destruct Sh2 as [Ab|(c2 & ms2 & E2)]; [discriminate|].
      cbn [app] in E2. injection E2 as _ E2. symmetry in E2. apply map_FMsg_elt in E2. destruct E2 as [x ->].
      split; [exact Wf|].
      destruct (in_conn s) eqn:IC; [reflexivity|]. destruct (G eq_refl) as [H|[H|H]]; congruence. }
  pose proof (frame_parse_encode _ _ (concat (map encode_frame m) ++ z) AC) as P. rewrite <- EB in P.
  destruct Hq as [H|[H|H]]; congruence.
Qed.

(** C07 for the actual session handler: for any two operation lists of an
    endpoint (any interleaving with sends, pumps, timers; any chunking of the
    reads) that have read the same octets and have left the endpoint open and
    listening, the frames acted on and the octets kept are the same. *)
Theorem session_stream_only : forall c ops1 ops2,
  received (init c) ops1 = received (init c) ops2 ->
  wf_bytes (received (init c) ops1) ->
  closed (run c ops1) = false -> rx_alive (run c ops1) = true ->
  closed (run c ops2) = false -> rx_alive (run c ops2) = true ->
  handled (run c ops1) = handled (run c ops2) /\ rx_buf (run c ops1) = rx_buf (run c ops2).
Proof.
  intros c ops1 ops2 ER W1 C1 A1 C2 A2.
  assert (W2 : wf_bytes (received (init c) ops2)) by (rewrite <- ER; exact W1).
  destruct (consume_run c ops1 W1) as [I1 E1]. destruct (consume_run c ops2 W2) as [I2 E2].
  pose proof (quiescent_run c ops1) as Q1. pose proof (quiescent_run c ops2) as Q2.
  set (s1 := run c ops1) in *. set (s2 := run c ops2) in *.
  assert (E : enc (handled s1) ++ rx_buf s1 = enc (handled s2) ++ rx_buf s2) by (rewrite <- E1, <- E2; exact ER).
  pose proof I1 as [(Sh1 & _ & Wf1 & _) _]. pose proof I2 as [(Sh2 & _ & Wf2 & _) _].
  destruct (frames_comparable _ _ false _ _ (wfseq_shape _ Sh1 Wf1) (wfseq_shape _ Sh2 Wf2) E) as [(m & Hm & Em)|(m & Hm & Em)].
  - assert (m = []) as -> by (apply (no_next_frame s1 m (rx_buf s2) I1 Q1 C1 A1); [rewrite <- Hm; assumption..|exact Em]).
    rewrite app_nil_r in Hm. split; [symmetry; exact Hm|exact Em].
  - assert (m = []) as -> by (apply (no_next_frame s2 m (rx_buf s1) I2 Q2 C2 A2); [rewrite <- Hm; assumption..|exact Em]).
    rewrite app_nil_r in Hm. split; [exact Hm|symmetry; exact Em].
Qed.

(** Two socket reads are one, as far as the frames acted on and the octets
    kept are concerned, whenever both ways leave the endpoint open and
    listening. *)
Theorem session_two_reads : forall c ops d1 d2,
  let s := run c ops in
  let a := step (step s (ORx d1)) (ORx d2) in
  let b := step s (ORx (d1 ++ d2)) in
  wf_bytes (received (init c) ops) -> wf_bytes d1 -> wf_bytes d2 ->
  closed a = false -> rx_alive a = true -> closed b = false -> rx_alive b = true ->
  handled a = handled b /\ rx_buf a = rx_buf b.
Proof.
  intros c ops d1 d2 s a b W0 Wd1 Wd2 Ca Aa Cb Ab.
  assert (Cm : closed (step s (ORx d1)) = false) by (eapply closed_step_inv; exact Ca).
  assert (Am : rx_alive (step s (ORx d1)) = true) by (eapply alive_step_inv; exact Aa).
  assert (Cs : closed s = false) by (eapply closed_step_inv; exact Cm).
  assert (As : rx_alive s = true) by (eapply alive_step_inv; exact Am).
  assert (Ra : received (init c) (ops ++ [ORx d1; ORx d2]) = received (init c) ops ++ d1 ++ d2).
  { unfold received. rewrite received_from_app. fold (run c ops). fold s.
    cbn [received_from]. rewrite Cs, As, Cm, Am. cbn [negb andb]. rewrite !app_nil_r. reflexivity. }
  assert (Rb : received (init c) (ops ++ [ORx (d1 ++ d2)]) = received (init c) ops ++ d1 ++ d2).
  { unfold received. rewrite received_from_app. fold (run c ops). fold s.
    cbn [received_from]. rewrite Cs, As. cbn [negb andb]. rewrite !app_nil_r. reflexivity. }
  assert (Ea : run c (ops ++ [ORx d1; ORx d2]) = a) by (rewrite run_app; reflexivity).
  assert (Eb : run c (ops ++ [ORx (d1 ++ d2)]) = b) by (rewrite run_app; reflexivity).
  rewrite <- Ea, <- Eb in *.
  apply session_stream_only; try assumption.
  - rewrite Ra, Rb. reflexivity.
  - rewrite Ra. apply wf_bytes_app. split; [exact W0|]. apply wf_bytes_app. split; assumption.
Qed.

(** The full-state version ("step (step s (ORx d1)) (ORx d2) = step s (ORx (d1 ++ d2))"
    whenever no exception escapes the first read) is FALSE for the session
    handler: [check_sess_term] closes the connection when the endpoint is
    terminating and idle, and "idle" looks at whether the receive buffer is
    empty -- so whether the connection closes after the peer's SESS_TERM
    depends on whether the octets of the next message arrived in the same read.
    Witness: an active endpoint that has sent SESS_TERM and flushed its
    transmit buffers reads the peer's SESS_TERM reply [5;1;0] and a KEEPALIVE [4]. *)
Definition refute_cfg : cfg := mkCfg false [97] 0 0 1000 1000 None.
Definition refute_ops : list op :=
  [OStart; ORx (MAGIC ++ [4;0] ++ encode_msg (MSessInit 0 1000 1000 [98] []));
   OTerm 0; OTxPump true 100000; OTxPump true 100000].

Theorem session_two_reads_refuted :
  exists c ops d1 d2,
    let s := run c ops in
    closed s = false /\ rx_alive s = true /\ d1 <> [] /\ d2 <> [] /\ wf_bytes (d1 ++ d2)
    /\ snd (recv_raw d1 s) = None
    /\ handled (step (step s (ORx d1)) (ORx d2)) <> handled (step s (ORx (d1 ++ d2)))
    /\ closed (step (step s (ORx d1)) (ORx d2)) = true
    /\ closed (step s (ORx (d1 ++ d2))) = false.
Proof.
  exists refute_cfg, refute_ops, [5;1;0], [4]. cbv zeta.
  split; [vm_compute; reflexivity|]. split; [vm_compute; reflexivity|].
  split; [discriminate|]. split; [discriminate|].
  split; [repeat constructor|]. split; [vm_compute; reflexivity|].
  split; [vm_compute; discriminate|]. split; vm_compute; reflexivity.
Qed.
