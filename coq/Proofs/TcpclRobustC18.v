(** C18: the D-Bus view of the endpoint model [Model/TcpclSess.v] is
    type-correct (every signal and return value conforms to its declared
    signature, [Gen/DBusSigs.v]) and consistent (queues, idle flag). *)
From Coq Require Import NArith Arith List Bool Lia.
From RecordUpdate Require Import RecordSet.
From DTN Require Import Lib.Bytes Model.TcpclMsg Model.TcpclSess Gen.DBusSigs Model.DbusSig
  Proofs.TcpclMsgProofs Proofs.TcpclSessBasics Proofs.TcpclSessSpec.
Import ListNotations RecordSetNotations.
Local Open Scope N_scope.

Theorem idle_sound : forall s,
  q_idle s = true ->
  pend_start s = [] /\ tx_tmp s = None /\ pend_ack s = [] /\ rx_tmp s = None
  /\ rx_buf s = [] /\ msg_tx s = [].
Proof.
  intros s. unfold q_idle, is_sess_idle, is_nil. intros H.
  destruct (rx_buf s), (msg_tx s), (rx_tmp s), (tx_tmp s), (pend_start s), (pend_ack s);
    cbn in H; try discriminate H; repeat split.
Qed.

Definition conf (e : event) : Prop := event_conforms e = true.

(** The signals with a length ('st...'); the other events conform by computation. *)
Lemma conf_len sg a n args rest :
  sig_of sg = CH_s :: CH_t :: rest -> conforms args rest = true -> n < 2^64 ->
  conf (ESig sg (PStrNum a :: PInt n :: args)).
Proof.
  intros E Ha H. apply N.ltb_lt in H. unfold conf. cbn [event_conforms conforms]. rewrite E.
  cbn [conforms conforms1 N.eqb Pos.eqb CH_s CH_t andb]. rewrite H. exact Ha.
Qed.

Lemma conf_flush l : Forall conf (map TcpclXferSpec.term_ev l).
Proof.
  induction l; cbn [map]; constructor; [|assumption].
  eapply conf_len; [reflexivity..|lia].
Qed.

(** The quantities that must stay below 2^64: the acknowledged lengths and the
    lengths of the bundles not yet started. *)

Definition acks_fit (s : ep) : Prop := Forall (fun kv : N * N => snd kv < 2^64) (tx_map s).
Definition pend_fit (s : ep) : Prop :=
  Forall (fun it : N * bytes => N.of_nat (length (snd it)) < 2^64) (pend_start s).
Definition rx_acc_len (s : ep) : nat := match rx_tmp s with Some (_, a) => length a | None => 0%nat end.
Definition seg_len (m : msg) : nat := match m with MXferSeg _ _ _ d => length d | _ => 0%nat end.
Definition fseg_len (f : frame) : nat := match f with FMsg m => seg_len m | FContact _ => 0%nat end.

Lemma Forall_del_all (P : N * N -> Prop) l d : Forall P d -> Forall P (del_all l d).
Proof.
  unfold del_all. revert d. induction l as [|it l IH]; cbn [fold_left]; intros d F; [exact F|].
  apply IH, dict_del_Forall, F.
Qed.

(** The events a computed state appends to its trace conform: by computation,
    as reports of a flush, or as signals with a length that is bounded. *)
Ltac conf_ext :=
  unfold ext_by; ep_cbn;
  ext_shape ltac:(first [ reflexivity | apply conf_flush
                        | eapply conf_len;
                          [reflexivity..|rewrite ?app_length; cbn [snd] in *; first [assumption | lia]] ]).

(** [Forall P] of a map or queue after its updates and deletions, from [Forall P]
    before and [P] of what is put in (a bound, by [lia]). *)
Ltac k_solve :=
  repeat first [ assumption | apply Forall_nil | apply Forall_app; split
               | apply dict_set_Forall | apply dict_del_Forall | apply Forall_del_all
               | apply Forall_cons | progress cbn [snd fst] | lia ].

(** One frame: the bounds are kept, what it adds to the transfer being
    received is at most its data, and its events conform. *)
Lemma frame_k f s :
  wf_frame f -> acks_fit s -> pend_fit s -> N.of_nat (rx_acc_len s + fseg_len f) < 2^64 ->
  acks_fit (fst (recv_frame f s)) /\ pend_fit (fst (recv_frame f s))
  /\ (rx_acc_len (fst (recv_frame f s)) <= rx_acc_len s + fseg_len f)%nat
  /\ ext_by conf s (fst (recv_frame f s)).
Proof.
  intros W J1 J3 Hb. unfold acks_fit, pend_fit, rx_acc_len in *.
  frame_cases f s; cbn [wf_frame wf_msg fseg_len seg_len] in *;
    repeat match goal with H : rx_tmp _ = _ |- _ => rewrite H in Hb end;
    try match goal with H : dict_get _ (tx_map _) = Some _ |- _ =>
          pose proof (dict_get_Forall _ _ _ _ J1 H) as Hack; cbn [snd] in Hack end;
    (split; [|split; [|split]]); ep_cbn.
  all: lazymatch goal with
       | |- Forall _ _ => repeat brk_any; k_solve
       | |- (_ <= _)%nat =>
           repeat match goal with H : rx_tmp _ = _ |- _ => rewrite H end;
           rewrite ?app_length; cbn [length]; try lia; destruct (rx_tmp s) as [[? ?]|]; lia
       | |- ext_by _ _ _ => conf_ext
       end.
Qed.

(** The invariant of a run.  [B] bounds the octets received so far: what has
    been accumulated of the transfer being received and what is still buffered
    came from them. *)
Record inv18 (B : nat) (s : ep) : Prop := {
  k_map : acks_fit s;
  k_buf : wf_bytes (rx_buf s);
  k_pend : pend_fit s;
  k_acc : (rx_acc_len s + length (rx_buf s) <= B)%nat
}.

Lemma encode_frame_len f : (fseg_len f <= length (encode_frame f))%nat.
Proof.
  destruct f as [c|m]; cbn [fseg_len]; [lia|].
  destruct m; cbn [seg_len]; try lia.
  unfold encode_frame, encode_msg. rewrite !app_length. lia.
Qed.

(** One frame: what it adds to the transfer being received it takes from the buffer. *)
Lemma frame_conf B fr rest s :
  N.of_nat B < 2^64 -> inv18 B s -> parse_frame (in_conn s) (rx_buf s) = Some (fr, rest) ->
  let s' := fst (recv_frame fr (rx_taken fr rest s)) in inv18 B s' /\ ext_by conf s s'.
Proof.
  intros HB [J1 J2 J3 J4] Hp. set (s1 := rx_taken fr rest s).
  destruct (frame_parse_sound _ _ _ _ J2 Hp) as (Eb & [Wf _] & Wr).
  pose proof (encode_frame_len fr) as Hl.
  assert (Hlen : length (rx_buf s) = (length (encode_frame fr) + length rest)%nat)
    by (rewrite Eb, app_length; reflexivity).
  assert (A1 : rx_acc_len s1 = rx_acc_len s) by reflexivity.
  assert (Hb : N.of_nat (rx_acc_len s1 + fseg_len fr) < 2^64) by lia.
  destruct (frame_k fr s1 Wf J1 J3 Hb) as (acks_fit' & pend_fit' & Hacc & He).
  destruct (frame_keeps fr s1) as (_ & _ & Ebuf & _).
  split; [split|]; try assumption.
  - rewrite Ebuf. exact Wr.
  - rewrite Ebuf. change (rx_buf s1) with rest. lia.
Qed.

Definition op_ok (o : op) : Prop :=
  match o with
  | OSend d => N.of_nat (length d) < 2^64
  | ORx d => wf_bytes d
  | _ => True
  end.
Definition rx_len (o : op) : nat := match o with ORx d => length d | _ => 0%nat end.
Definition rx_total (ops : list op) : nat := list_sum (map rx_len ops).

Lemma inv18_mono B B' s : (B <= B')%nat -> inv18 B s -> inv18 B' s.
Proof. intros H [J1 J2 J3 J4]. split; try assumption. lia. Qed.

Lemma step_conf B s o :
  inv18 B s -> op_ok o -> N.of_nat (B + rx_len o) < 2^64 ->
  inv18 (B + rx_len o) (step s o) /\ ext_by conf s (step s o).
Proof.
  intros I Hok HB.
  assert (Triv : inv18 (B + rx_len o) s /\ ext_by conf s s)
    by (split; [eapply inv18_mono; [|exact I]; lia|apply ext_refl]).
  destruct (closed s) eqn:Hc.
  { rewrite step_closed by exact Hc. destruct o; try exact Triv.
    destruct Triv as [[J1 J2 J3 J4] _]. split; [split; assumption|apply ext_same; reflexivity]. }
  destruct (step_spec s o Hc); cbn [rx_len op_ok] in *; try exact Triv; clear Triv.
  (* all but a read: the four parts of the invariant, field by field (where a
     transfer starts its length comes from [pend_fit]), and the events *)
  all: try solve [
    rewrite Nat.add_0_r; destruct I as [J1 J2 J3 J4]; unfold acks_fit, pend_fit in J1, J3; spec_cases;
    try match goal with H : pend_start ?s = _ :: _, J : Forall _ (pend_start ?s) |- _ =>
          rewrite H in J; inversion J; subst end;
    (split; [split; [ unfold acks_fit; ep_cbn; repeat brk_any; k_solve | ep_cbn; assumption
                    | unfold pend_fit; ep_cbn; repeat brk_any;
                      try match goal with H : pend_start _ = _ |- _ => rewrite H end; k_solve
                    | unfold rx_acc_len in *; ep_cbn; lia ]
            | conf_ext ]) ].
  (* a read: more is buffered, by the length of [data] *)
  set (B' := (B + length data)%nat) in *.
  apply (recv_raw_inv (fun s' => inv18 B' s' /\ ext_by conf s s')
                      (fun s' => inv18 B' s' /\ ext_by conf s s')).
  - destruct I as [J1 J2 J3 J4]. split; [|apply ext_same; reflexivity]. split; [exact J1| |exact J3|].
    + ep_cbn. apply wf_bytes_app. split; assumption.
    + unfold rx_acc_len in *. ep_cbn. rewrite app_length. lia.
  - intros s0 fr rest [I0 He] _ Hp. destruct (frame_conf B' fr rest s0 HB I0 Hp) as [I' He'].
    split; [exact I'|]. eapply ext_trans; eassumption.
  - auto.
  - intros s' k [[J1 J2 J3 J4] He]. split; [split; assumption|].
    eapply ext_trans; [exact He|]. exists [EExc k]. split; [reflexivity|].
    constructor; [reflexivity|constructor].
Qed.

Lemma rx_total_snoc ops o : rx_total (ops ++ [o]) = (rx_total ops + rx_len o)%nat.
Proof. unfold rx_total. rewrite map_app, list_sum_app. simpl. lia. Qed.

(** Every length that crosses the D-Bus boundary stays below 2^64 provided
    every bundle handed to [send_bundle_data] is shorter than 2^64 octets, what is
    received are octets, and fewer than 2^64 of them are received in all. *)
Theorem conforms_run : forall c ops,
  Forall op_ok ops -> N.of_nat (rx_total ops) < 2^64 ->
  Forall (fun e => event_conforms e = true) (trace (run c ops)).
Proof.
  intros c ops H1 H2.
  destruct (run_events (fun l => Forall op_ok l /\ N.of_nat (rx_total l) < 2^64)
              (fun l => inv18 (rx_total l)) conf (fun _ => conf) (init c)) with (ops := ops) as [_ F];
    [split; cbn; try constructor|constructor| | |split; assumption|].
  - intros pre o. rewrite rx_total_snoc, Forall_app. intros [[H _] Hb]. split; [exact H|lia].
  - intros pre o. rewrite rx_total_snoc, Forall_app. intros [[_ Ho] Hb] s I. inversion Ho; subst.
    apply step_conf; assumption.
  - eapply Forall_impl; [|exact F]. intros e [H|[_ [_ H]]]; exact H.
Qed.
