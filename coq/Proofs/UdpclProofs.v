(** Proofs for property C13 over the UDPCL transfer model (Model/Udpcl.v).
    The generated arithmetic (Gen/UdpclBudget.v) enters through the [gen_*]
    equations and [seg_loop_S] only.  The receiver restricted to one
    (peer, id) key is the local run [xrun] ([run_segments_proj]); [xinv] says
    that what has been written agrees with the bundle, [tracked] that the
    interval set is that of the pieces seen (over Lib/Ivl).  The pacing queue
    of a conversation ([pacing_conserves], [pacing_drains]) stands apart. *)
From Coq Require Import List NArith ZArith Arith Bool Lia ZifyBool ZifyN ZifyNat Permutation.
From DTN Require Import Lib.Bytes Lib.Cbor Lib.CborProofs Lib.Ivl Lib.IvlProofs Gen.UdpclBudget Model.Udpcl.
From DTN Require Import Proofs.AssocUpdate.
From DTN Require Model.BpReasm Proofs.BpReasmProofs.
Import ListNotations.
Local Open Scope N_scope.

Lemma gen_unsegmented len mtu : unsegmented len mtu = (len <? mtu)%Z.
Proof. reflexivity. Qed.
Lemma gen_loop_test off len : loop_test off len = (off <? len)%Z.
Proof. reflexivity. Qed.
Lemma gen_next_offset off r : next_offset off r = (off + r)%Z.
Proof. reflexivity. Qed.
Lemma gen_slice_lo off r : slice_lo off r = off.
Proof. reflexivity. Qed.
Lemma gen_slice_hi off r : slice_hi off r = (off + r)%Z.
Proof. reflexivity. Qed.
Lemma gen_init_offset : init_offset = 0%Z.
Proof. reflexivity. Qed.
Lemma gen_seg_msg xid total off frag :
  seg_msg xid total off frag = CMap [(CUint 2, CArr [CUint xid; CUint total; CUint off; CBstr frag])].
Proof. reflexivity. Qed.

Definition overhead (xid total : N) : nat := (3 + head_len xid + 3 * head_len total)%nat.

Lemma enc_seg_length xid total off frag :
  length (encode (seg_msg xid total off frag))
  = (3 + head_len xid + head_len total + head_len off + head_len (olen frag) + length frag)%nat.
Proof.
  rewrite gen_seg_msg. cbn [encode map concat fst snd length].
  rewrite ?app_length, ?head_length. cbn [length]. unfold olen.
  change (head_len (N.of_nat 1)) with 1%nat. change (head_len 2) with 1%nat.
  change (head_len (N.of_nat 4)) with 1%nat. lia.
Qed.

Lemma gen_remain mtu xid total : remain mtu xid total = (Z.of_N mtu - Z.of_nat (overhead xid total))%Z.
Proof.
  unfold remain, ext_base_encsize, data_size_encsize, ext_base, remain_size, overhead.
  change (ext_of ext_base_fields xid total total []) with (seg_msg xid total total []).
  rewrite enc_seg_length. cbn [field_item data_size_field encode]. rewrite head_length.
  change (olen []) with 0. change (head_len 0) with 1%nat. cbn [length]. lia.
Qed.

Definition piece_of (data : bytes) (p : N * bytes) : Prop :=
  exists pre post, data = pre ++ snd p ++ post /\ olen pre = fst p.

Lemma olen_app a b : olen (a ++ b) = olen a + olen b.
Proof. unfold olen. rewrite app_length. lia. Qed.

Lemma tiling_pieces : forall ps pre,
  contiguous_from (olen pre) ps -> Forall (piece_of (pre ++ concat (map snd ps))) ps.
Proof.
  induction ps as [|[o f] r IH]; intros pre Hc; [constructor|].
  cbn [contiguous_from] in Hc. destruct Hc as (-> & _ & Hc). cbn [map concat snd].
  constructor.
  - exists pre, (concat (map snd r)). cbn [fst snd]. auto.
  - rewrite app_assoc. apply IH. rewrite olen_app. exact Hc.
Qed.

Corollary tiling_piece_of data ps :
  contiguous_from 0 ps -> concat (map snd ps) = data -> Forall (piece_of data) ps.
Proof. intros Hc <-. exact (tiling_pieces ps [] Hc). Qed.

Lemma piece_of_bound data p : piece_of data p -> fst p + olen (snd p) <= olen data.
Proof.
  intros (pre & post & Hd & Hp). rewrite Hd, !olen_app. lia.
Qed.

Definition ranges (l : list (N * bytes)) : list (N * N) :=
  map (fun p => (fst p, fst p + olen (snd p))) l.

Lemma olen_pos (f : bytes) : f <> [] -> 1 <= olen f.
Proof. destruct f; [congruence|]. unfold olen. cbn [length]. lia. Qed.

Lemma contig_In : forall ps off, contiguous_from off ps ->
  forall q, In q ps -> off <= fst q /\ 1 <= olen (snd q).
Proof.
  induction ps as [|[o f] r IH]; intros off Hc q Hq; [destruct Hq|].
  cbn [contiguous_from] in Hc. destruct Hc as (-> & Hne & Hc). apply olen_pos in Hne.
  destruct Hq as [<-|Hq]; [cbn [fst snd]; lia|].
  specialize (IH _ Hc q Hq). lia.
Qed.

Lemma tiling_disjoint : forall ps off, contiguous_from off ps ->
  forall p q, In p ps -> In q ps -> fst q <= fst p < fst q + olen (snd q) -> p = q.
Proof.
  induction ps as [|[o f] r IH]; intros off Hc p q Hp Hq Hr; [destruct Hp|].
  cbn [contiguous_from] in Hc. destruct Hc as (-> & Hne & Hc). apply olen_pos in Hne.
  destruct Hp as [<-|Hp], Hq as [<-|Hq]; cbn [fst snd] in *.
  - reflexivity.
  - pose proof (contig_In _ _ Hc q Hq). lia.
  - pose proof (contig_In _ _ Hc p Hp). lia.
  - exact (IH _ Hc p q Hp Hq Hr).
Qed.

Lemma contig_NoDup : forall ps off, contiguous_from off ps -> NoDup ps.
Proof.
  induction ps as [|[o f] r IH]; intros off Hc; [constructor|].
  cbn [contiguous_from] in Hc. destruct Hc as (-> & Hne & Hc). apply olen_pos in Hne.
  constructor; [|exact (IH _ Hc)].
  intros Hin. pose proof (contig_In _ _ Hc _ Hin) as H. cbn [fst] in H. lia.
Qed.

Lemma tiling_cover x : forall ps off, contiguous_from off ps ->
  existsb (fun q => (fst q <=? x) && (x <? snd q)) (ranges ps)
  = (off <=? x) && (x <? off + olen (concat (map snd ps))).
Proof.
  induction ps as [|[o f] r IH]; intros off Hc.
  - cbn. unfold olen. cbn. lia.
  - cbn [contiguous_from] in Hc. destruct Hc as (-> & _ & Hc).
    cbn [ranges map existsb fst snd concat]. fold (ranges r). rewrite (IH _ Hc).
    rewrite olen_app. lia.
Qed.

Lemma seg_loop_S f data r off :
  seg_loop (S f) data r off
  = if (off <? Z.of_nat (length data))%Z
    then option_map (cons (Z.to_N off, pyslice data off (off + r))) (seg_loop f data r (off + r))
    else Some [].
Proof.
  cbn [seg_loop]. rewrite gen_loop_test, gen_next_offset, (gen_slice_lo off r), (gen_slice_hi off r).
  destruct (seg_loop f data r (off + r)); reflexivity.
Qed.

Section Loop.
  Variable data : bytes.
  Variable r : Z.

  Lemma seg_loop_terminates : (0 < r)%Z -> forall fuel off,
    (0 <= off)%Z -> (Z.to_nat (Z.of_nat (length data) - off) < fuel)%nat ->
    exists ps, seg_loop fuel data r off = Some ps
      /\ contiguous_from (Z.to_N off) ps
      /\ concat (map snd ps) = skipn (Z.to_nat off) data
      /\ Forall (fun p => (Z.of_nat (length (snd p)) <= r)%Z) ps.
  Proof.
    intros Hr. induction fuel as [|f IH]; intros off Hoff Hf; [lia|].
    rewrite seg_loop_S. destruct (off <? Z.of_nat (length data))%Z eqn:Hlt.
    - destruct (IH (off + r)%Z ltac:(lia) ltac:(lia)) as (l & -> & Hc & Hcat & Hall).
      eexists. split; [reflexivity|].
      unfold pyslice. replace (Z.to_nat (off + r) - Z.to_nat off)%nat with (Z.to_nat r) by lia.
      set (fr := firstn (Z.to_nat r) (skipn (Z.to_nat off) data)).
      assert (Hlen : length fr = Nat.min (Z.to_nat r) (length data - Z.to_nat off))
        by (unfold fr; rewrite firstn_length, skipn_length; reflexivity).
      assert (Hne : fr <> []) by (intros Hnil; rewrite Hnil in Hlen; cbn [length] in Hlen; lia).
      split; [|split].
      + cbn [contiguous_from]. split; [reflexivity|]. split; [exact Hne|].
        (* the next offset is [off + r] although the last slice may be shorter:
           then nothing follows *)
        destruct l as [|[o2 f2] l2]; [exact I|].
        pose proof Hc as (_ & Hf2 & _). apply olen_pos in Hf2. apply (f_equal (@length _)) in Hcat.
        cbn [map concat snd] in Hcat. rewrite app_length, skipn_length in Hcat.
        replace (Z.to_N off + olen fr) with (Z.to_N (off + r)); [exact Hc|]. unfold olen in *. lia.
      + cbn [map concat snd]. rewrite Hcat. unfold fr.
        replace (Z.to_nat (off + r)) with (Z.to_nat off + Z.to_nat r)%nat by lia.
        rewrite <- skipn_skipn. apply firstn_skipn.
      + constructor; [cbn [snd]; lia | exact Hall].
    - exists []. cbn [contiguous_from map concat]. repeat split; [|constructor].
      symmetry. apply skipn_all2. lia.
  Qed.

  (** the observation recorded in DESIGN: with [remain_size <= 0] the loop
      never ends, whatever the fuel *)
  Lemma seg_loop_diverges : (r <= 0)%Z -> forall fuel off,
    (off < Z.of_nat (length data))%Z -> seg_loop fuel data r off = None.
  Proof.
    intros Hr. induction fuel as [|f IH]; intros off Hoff; [reflexivity|].
    rewrite seg_loop_S, IH by lia. replace (off <? Z.of_nat (length data))%Z with true by lia. reflexivity.
  Qed.
End Loop.

Definition feasible (mtu xid total : N) : Prop := N.of_nat (overhead xid total) < mtu.

Lemma feasible_remain mtu xid total : feasible mtu xid total <-> (0 < remain mtu xid total)%Z.
Proof. unfold feasible. rewrite gen_remain. lia. Qed.

Theorem send_pieces_tiling data mtu xid :
  feasible mtu xid (olen data) ->
  exists ps, send_pieces data mtu xid = Some ps
    /\ contiguous_from 0 ps /\ concat (map snd ps) = data
    /\ Forall (fun p => (Z.of_nat (length (snd p)) <= remain mtu xid (olen data))%Z) ps.
Proof.
  intros Hf. unfold send_pieces. rewrite gen_init_offset.
  apply seg_loop_terminates; [apply feasible_remain; exact Hf | lia | lia].
Qed.

Corollary send_pieces_spec data mtu xid ps :
  feasible mtu xid (olen data) -> send_pieces data mtu xid = Some ps ->
  contiguous_from 0 ps /\ concat (map snd ps) = data
  /\ Forall (fun p => (Z.of_nat (length (snd p)) <= remain mtu xid (olen data))%Z) ps.
Proof.
  intros Hf E. destruct (send_pieces_tiling data mtu xid Hf) as (ps' & E' & H).
  rewrite E in E'. injection E' as <-. exact H.
Qed.

Theorem send_pieces_diverges data mtu xid fuel :
  ~ feasible mtu xid (olen data) -> data <> [] ->
  seg_loop fuel data (remain mtu xid (olen data)) init_offset = None.
Proof.
  intros Hf Hne. rewrite gen_init_offset. apply seg_loop_diverges.
  - rewrite feasible_remain in Hf. lia.
  - destruct data; [congruence|]. cbn [length]. lia.
Qed.

Theorem send_terminates data mtu xid :
  feasible mtu xid (olen data) -> exists dgs, send_transfer data mtu xid = Some dgs.
Proof.
  intros Hf. unfold send_transfer. destruct (unsegmented _ _); [eexists; reflexivity|].
  destruct (send_pieces_tiling data mtu xid Hf) as (ps & -> & _). eexists; reflexivity.
Qed.

Theorem send_single data mtu xid :
  olen data < mtu -> send_transfer data mtu xid = Some [data].
Proof.
  intros Hlt. unfold send_transfer. rewrite gen_unsegmented.
  replace (Z.of_nat (length data) <? Z.of_N mtu)%Z with true; [reflexivity|]. unfold olen in Hlt. lia.
Qed.

Theorem send_segmented data mtu xid :
  mtu <= olen data ->
  send_transfer data mtu xid = option_map (map (enc_piece xid (olen data))) (send_pieces data mtu xid).
Proof.
  intros Hle. unfold send_transfer. rewrite gen_unsegmented.
  replace (Z.of_nat (length data) <? Z.of_N mtu)%Z with false; [reflexivity|]. unfold olen in Hle. lia.
Qed.

Lemma enc_piece_within data mtu xid p :
  piece_of data p -> (Z.of_nat (length (snd p)) <= remain mtu xid (olen data))%Z ->
  olen (enc_piece xid (olen data) p) <= mtu.
Proof.
  intros Hb Hl. apply piece_of_bound in Hb. unfold enc_piece, olen at 1. rewrite enc_seg_length.
  rewrite gen_remain in Hl. unfold overhead in *.
  (* offset and length are at most the total, so their heads are no longer
     than the three heads of the total in the base map *)
  pose proof (head_len_mono (fst p) (olen data) ltac:(lia)) as H1.
  pose proof (head_len_mono (olen (snd p)) (olen data) ltac:(lia)) as H2.
  unfold olen in *. lia.
Qed.

Theorem send_within_mtu data mtu xid dgs :
  feasible mtu xid (olen data) -> send_transfer data mtu xid = Some dgs ->
  Forall (fun d => olen d <= mtu) dgs.
Proof.
  intros Hf E. destruct (N.lt_ge_cases (olen data) mtu) as [Hlt|Hle].
  - rewrite send_single in E by exact Hlt. injection E as <-. constructor; [lia|constructor].
  - destruct (send_pieces_tiling data mtu xid Hf) as (ps & Ep & Hc & Hcat & Hall).
    rewrite send_segmented, Ep in E by exact Hle. injection E as <-.
    pose proof (tiling_piece_of data ps Hc Hcat) as Hpo.
    apply Forall_map. rewrite Forall_forall in *. intros p Hp. apply enc_piece_within; auto.
Qed.

Lemma key_eqb_eq a b : key_eqb a b = true <-> a = b.
Proof.
  destruct a as [a1 a2], b as [b1 b2]. unfold key_eqb. cbn [fst snd].
  rewrite andb_true_iff, !N.eqb_eq. split; [intros [-> ->]; reflexivity | intros H; inversion H; auto].
Qed.

Lemma key_eqb_sym a b : key_eqb a b = key_eqb b a.
Proof. unfold key_eqb. rewrite (N.eqb_sym (fst a)), (N.eqb_sym (snd a)). reflexivity. Qed.

Lemma lookup_update k o l k' :
  lookup k' (match o with Some v => set_key k v l | None => del_key k l end)
  = if key_eqb k' k then o else lookup k' l.
Proof. apply (get_update _ _ key_eqb key_eqb_eq lookup set_key del_key); reflexivity. Qed.

(** A TRANSFER item without its key: (total, offset, fragment). *)
Definition local_event : Type := (N * N * bytes)%type.
Definition ev_local (e : seg_event) : local_event := let '(_, _, t, o, f) := e in (t, o, f).

Fixpoint xrun (x : option xfer) (l : list local_event) : option xfer * list (option bytes * bool) :=
  match l with
  | [] => (x, [])
  | (t, o, f) :: r =>
      match xstep x t o f with
      | (x', out, err) => match xrun x' r with (x'', outs) => (x'', (out, err) :: outs) end
      end
  end.

Lemma xrun_app l1 : forall x l2,
  xrun x (l1 ++ l2) =
  match xrun x l1 with (x1, o1) => match xrun x1 l2 with (x2, o2) => (x2, o1 ++ o2) end end.
Proof.
  induction l1 as [|[[t o] f] r IH]; intros x l2; cbn [app xrun].
  - destruct (xrun x l2); reflexivity.
  - destruct (xstep x t o f) as [[x' out] err]. rewrite IH.
    destruct (xrun x' r) as [x1 o1]. destruct (xrun x1 l2) as [x2 o2]. reflexivity.
Qed.

Lemma xstep_err x t o f x' out : xstep x t o f = (x', out, true) -> x' = x /\ out = None.
Proof.
  unfold xstep. destruct x as [x0|].
  - destruct (x_total x0 =? t); intros E; inversion E; auto.
  - intros E; inversion E.
Qed.

Definition own (k : key) (e : seg_event) : bool := key_eqb (ev_key e) k.
Definition own_out (k : key) (eo : seg_event * (option bytes * bool)) : bool := key_eqb (ev_key (fst eo)) k.

Lemma recv_segment_spec st peer xid total off frag x' out err :
  xstep (lookup (peer, xid) (r_frags st)) total off frag = (x', out, err) ->
  exists st1, recv_segment st peer xid total off frag = (st1, out, err)
    /\ (forall k, lookup k (r_frags st1) = if key_eqb k (peer, xid) then x' else lookup k (r_frags st))
    /\ r_queue st1 = r_queue st ++ match out with Some b => [(peer, b)] | None => [] end.
Proof.
  intros Ex. unfold recv_segment. rewrite Ex. destruct err.
  - apply xstep_err in Ex as [-> ->]. exists st. split; [reflexivity|]. split; [|symmetry; apply app_nil_r].
    intros k. destruct (key_eqb k (peer, xid)) eqn:E; [apply key_eqb_eq in E; subst k|]; reflexivity.
  - eexists. split; [reflexivity|]. cbn [r_frags r_queue]. split; [intros k; apply lookup_update|reflexivity].
Qed.

(** Non-interference: what happens to the entry of [k], and what the items of
    [k] output, depends on the items of [k] only. *)
Lemma run_segments_proj k : forall evs st st' outs,
  run_segments st evs = (st', outs) ->
  xrun (lookup k (r_frags st)) (map ev_local (filter (own k) evs))
  = (lookup k (r_frags st'), map snd (filter (own_out k) (combine evs outs))).
Proof.
  induction evs as [|e r IH]; intros st st' outs H.
  - cbn in H. injection H as <- <-. reflexivity.
  - destruct e as [[[[peer xid] total] off] frag]. cbn [run_segments] in H.
    destruct (xstep (lookup (peer, xid) (r_frags st)) total off frag) as [[x' out] err] eqn:Ex.
    destruct (recv_segment_spec _ _ _ _ _ _ _ _ _ Ex) as (st1 & E1 & Hk & _). rewrite E1 in H.
    destruct (run_segments st1 r) as [st2 outs2] eqn:E2. injection H as <- <-.
    specialize (IH _ _ _ E2). rewrite (Hk k), key_eqb_sym in IH.
    cbn [filter combine]. unfold own at 1, own_out at 1. cbn [ev_key fst].
    destruct (key_eqb (peer, xid) k) eqn:Ek; [|exact IH].
    apply key_eqb_eq in Ek. subst k. cbn [map ev_local xrun]. rewrite Ex, IH. reflexivity.
Qed.

Definition queued_of (eo : seg_event * (option bytes * bool)) : list (N * bytes) :=
  match fst (snd eo) with
  | Some b => [(fst (ev_key (fst eo)), b)]
  | None => []
  end.

Lemma run_segments_queue : forall evs st st' outs,
  run_segments st evs = (st', outs) ->
  r_queue st' = r_queue st ++ flat_map queued_of (combine evs outs) /\ length outs = length evs.
Proof.
  induction evs as [|e r IH]; intros st st' outs H.
  - cbn in H. injection H as <- <-. cbn. rewrite app_nil_r. auto.
  - destruct e as [[[[peer xid] total] off] frag]. cbn [run_segments] in H.
    destruct (xstep (lookup (peer, xid) (r_frags st)) total off frag) as [[x' out] err] eqn:Ex.
    destruct (recv_segment_spec _ _ _ _ _ _ _ _ _ Ex) as (st1 & E1 & _ & Hq). rewrite E1 in H.
    destruct (run_segments st1 r) as [st2 outs2] eqn:E2. injection H as <- <-.
    destruct (IH _ _ _ E2) as [IHq IHl]. cbn [combine flat_map length].
    rewrite IHq, IHl, Hq, <- app_assoc. split; reflexivity.
Qed.

(** A transfer entry is a reassembly slot of Model/BpReasm.v (without its
    first-fragment field), and [xwrite] changes it as [entry_step] does there:
    the invariant "the buffer agrees with the bundle on the valid set", its
    preservation and the completed buffer are those of BpReasmProofs.  A piece
    becomes a fragment with an arbitrary identity and no blocks, which that
    invariant does not look at; [BpReasm.blen] is [olen]. *)
Definition slot_of (x : xfer) : BpReasm.entry := BpReasm.mkEntry (x_total x) (x_valid x) (x_buf x) None.
Definition as_frag (total : N) (p : N * bytes) : BpReasm.frag := BpReasm.mkFrag (0, 0, 0) (fst p) total (snd p) [].

Definition xinv (data : bytes) (x : xfer) : Prop := BpReasmProofs.entry_ok data (slot_of x).

Definition oinv (data : bytes) (x : option xfer) : Prop :=
  match x with None => True | Some x0 => xinv data x0 end.

Lemma splice_eq buf off frag : splice buf off frag = BpReasm.splice buf off (off + olen frag) frag.
Proof. unfold splice, BpReasm.splice, olen. rewrite N2Nat.inj_add, Nat2N.id. reflexivity. Qed.

Lemma piece_frag data p : piece_of data p -> BpReasm.frag_of (0, 0, 0) data (as_frag (olen data) p).
Proof.
  intros Hp. pose proof (piece_of_bound _ _ Hp) as Hb. destruct Hp as (pre & post & Hd & Hpre).
  repeat split; [exact Hb|]. cbn [as_frag BpReasm.f_data BpReasm.f_off].
  rewrite <- Hpre, Hd. unfold olen. rewrite Nat2N.id, skipn_len_app, firstn_len_app. reflexivity.
Qed.

(** No entry and a fresh entry behave alike. *)
Definition entry_of (total : N) (x : option xfer) : xfer :=
  match x with Some x0 => x0 | None => mk_xfer total [] (repeat 0 (N.to_nat total)) end.

Lemma xstep_entry x total off frag :
  x_total (entry_of total x) = total -> xstep x total off frag = (xwrite (entry_of total x) off frag, false).
Proof. destruct x as [x0|]; cbn [entry_of xstep]; [intros ->; rewrite N.eqb_refl|]; reflexivity. Qed.

Lemma xstep_inv data x p :
  oinv data x -> piece_of data p ->
  exists x' out, xstep x (olen data) (fst p) (snd p) = (x', out, false)
                 /\ oinv data x' /\ (out = None \/ out = Some data).
Proof.
  intros Hx Hp.
  assert (Hx0 : xinv data (entry_of (olen data) x)) by (destruct x; [exact Hx | exact (BpReasmProofs.fresh_ok data)]).
  rewrite xstep_entry by exact (proj1 Hx0).
  pose proof (BpReasmProofs.entry_step_ok _ _ _ _ None Hx0 (piece_frag _ _ Hp)) as Hs.
  unfold xwrite. rewrite splice_eq. destruct (Ivl.eqb _ _) eqn:Ec.
  - exists None, (Some data). split; [|cbn [oinv]; auto].
    f_equal. f_equal. f_equal. exact (BpReasmProofs.complete_buf _ _ Hs Ec).
  - eexists _, None. split; [reflexivity|]. split; [exact Hs | auto].
Qed.

Definition piece_event (total : N) (p : N * bytes) : local_event := (total, fst p, snd p).

Definition out_safe (data : bytes) (oe : option bytes * bool) : Prop :=
  snd oe = false /\ (fst oe = None \/ fst oe = Some data).

Lemma xrun_safe data : forall l x x' outs,
  oinv data x -> Forall (piece_of data) l ->
  xrun x (map (piece_event (olen data)) l) = (x', outs) ->
  oinv data x' /\ Forall (out_safe data) outs.
Proof.
  induction l as [|p r IH]; intros x x' outs Hx Hl E.
  - cbn in E. injection E as <- <-. auto.
  - inversion Hl as [|? ? Hp Hr]; subst. cbn [map xrun piece_event] in E.
    destruct (xstep_inv data x p Hx Hp) as (x1 & out & Es & Hx1 & Hout). rewrite Es in E.
    destruct (xrun x1 (map (piece_event (olen data)) r)) as [x2 outs2] eqn:E2. injection E as <- <-.
    destruct (IH _ _ _ Hx1 Hr E2) as [Hx2 Ho2]. split; [exact Hx2|].
    constructor; [split; [reflexivity | exact Hout] | exact Ho2].
Qed.

Definition tracked (total : N) (l : list (N * bytes)) (x : option xfer) : Prop :=
  x_total (entry_of total x) = total /\ x_valid (entry_of total x) = add_all (ranges l) [].

Lemma ranges_snoc l p : add_all (ranges (l ++ [p])) [] = Ivl.add (fst p) (fst p + olen (snd p)) (add_all (ranges l) []).
Proof. unfold ranges, add_all. rewrite map_app, fold_left_app. reflexivity. Qed.

Lemma xstep_track total l x p :
  tracked total l x ->
  exists buf', xstep x total (fst p) (snd p)
    = if Ivl.eqb (add_all (ranges (l ++ [p])) []) (full total)
      then (None, Some buf', false)
      else (Some (mk_xfer total (add_all (ranges (l ++ [p])) []) buf'), None, false).
Proof.
  intros [Ht Hv]. rewrite ranges_snoc, xstep_entry by exact Ht. unfold xwrite. rewrite Hv, Ht.
  eexists. destruct (Ivl.eqb _ _); reflexivity.
Qed.

Section Tiling.
  Variable data : bytes.
  Variable ps : list (N * bytes).
  Hypothesis Hcontig : contiguous_from 0 ps.
  Hypothesis Hcat : concat (map snd ps) = data.

  Let total := olen data.

  Lemma tiling_complete : Ivl.eqb (add_all (ranges ps) []) (full total) = true.
  Proof.
    apply complete_iff; [apply add_all_norm; exact I|].
    intros x. rewrite add_all_mem. cbn [Ivl.mem orb]. rewrite (tiling_cover x ps 0 Hcontig), Hcat.
    unfold total. lia.
  Qed.

  Lemma tiling_incomplete l p :
    incl l ps -> In p ps -> ~ In p l ->
    Ivl.eqb (add_all (ranges l) []) (full total) = false.
  Proof.
    intros Hsub Hp Hnot.
    pose proof (tiling_piece_of data ps Hcontig Hcat) as Hpo. rewrite Forall_forall in Hpo.
    pose proof (piece_of_bound _ _ (Hpo p Hp)) as Hb.
    pose proof (contig_In ps 0 Hcontig p Hp) as Hne.
    apply (incomplete_neq _ _ (fst p)); [fold total in Hb; lia|].
    rewrite add_all_mem. cbn [Ivl.mem orb].
    apply not_true_is_false. intros Hex. apply existsb_exists in Hex.
    destruct Hex as (rg & Hin & Hrg). unfold ranges in Hin. apply in_map_iff in Hin.
    destruct Hin as (q & <- & Hq). cbn [fst snd] in Hrg.
    assert (p = q) by (apply (tiling_disjoint ps 0 Hcontig); [exact Hp | apply Hsub; exact Hq | lia]).
    subst q. contradiction.
  Qed.

  Lemma xrun_no_early : forall l,
    incl l ps -> (exists p, In p ps /\ ~ In p l) ->
    exists x', xrun None (map (piece_event total) l) = (x', repeat (None, false) (length l))
               /\ tracked total l x'.
  Proof.
    induction l as [|e l IH] using rev_ind; intros Hsub (p & Hp & Hnot).
    - exists None. repeat split.
    - destruct IH as (x1 & E1 & Ht1);
        [intros q Hq; apply Hsub, in_or_app; auto
        | exists p; split; [exact Hp | intros Hin; apply Hnot, in_or_app; auto] |].
      destruct (xstep_track total l x1 e Ht1) as (buf' & Es).
      rewrite (tiling_incomplete (l ++ [e]) p Hsub Hp Hnot) in Es.
      eexists. rewrite map_app, xrun_app, E1. cbn [map xrun piece_event]. rewrite Es.
      rewrite app_length, Nat.add_1_r. cbn [repeat]. rewrite repeat_cons. repeat split.
  Qed.

  Lemma xrun_permutation l :
    ps <> [] -> Permutation ps l ->
    xrun None (map (piece_event total) l)
    = (None, repeat (None, false) (length ps - 1) ++ [(Some data, false)]).
  Proof.
    intros Hne Hperm.
    assert (Hl : l <> []) by (intros ->; apply Permutation_sym, Permutation_nil in Hperm; contradiction).
    destruct (exists_last Hl) as (l0 & e & ->).
    (* the last item [e] is a piece that has not come before *)
    assert (Hpe : Permutation ps (e :: l0)) by (rewrite Hperm; symmetry; apply Permutation_cons_append).
    pose proof (Permutation_NoDup Hpe (contig_NoDup ps 0 Hcontig)) as Hnd. apply NoDup_cons_iff in Hnd as [Hnot _].
    pose proof (fun q => Permutation_in q (Permutation_sym Hpe)) as Hin.
    pose proof (Hin e (or_introl eq_refl)) as He. pose proof (fun q Hq => Hin q (or_intror Hq)) as Hsub.
    destruct (xrun_no_early l0 Hsub (ex_intro _ e (conj He Hnot))) as (x1 & E1 & Ht1).
    destruct (xstep_track total l0 x1 e Ht1) as (buf' & Es).
    replace (add_all (ranges (l0 ++ [e])) []) with (add_all (ranges ps) []) in Es
      by (apply add_all_perm; [exact I | apply Permutation_map, Hperm]).
    rewrite tiling_complete in Es.
    assert (E : xrun None (map (piece_event total) (l0 ++ [e]))
                = (None, repeat (None, false) (length l0) ++ [(Some buf', false)]))
      by (rewrite map_app, xrun_app, E1; cbn [map xrun piece_event]; rewrite Es; reflexivity).
    (* what is output is the bundle: [xrun_safe] *)
    destruct (xrun_safe data _ None _ _ I (Permutation_Forall Hperm (tiling_piece_of data ps Hcontig Hcat)) E) as [_ Hsafe].
    apply Forall_app in Hsafe as [_ Hlast]. apply Forall_inv in Hlast as (_ & [Hb|Hb]); [discriminate|].
    injection Hb as ->. rewrite E. f_equal. f_equal. f_equal.
    apply Permutation_length in Hpe. cbn [length] in Hpe. lia.
  Qed.
End Tiling.

Definition gev (peer xid total : N) (p : N * bytes) : seg_event := (peer, xid, total, fst p, snd p).

Lemma ev_local_gev peer xid total ps :
  map ev_local (map (gev peer xid total) ps) = map (piece_event total) ps.
Proof. rewrite map_map. reflexivity. Qed.

Theorem reassembly data mtu xid peer ps st evs st' outs :
  feasible mtu xid (olen data) -> send_pieces data mtu xid = Some ps -> data <> [] ->
  lookup (peer, xid) (r_frags st) = None ->
  Permutation (filter (own (peer, xid)) evs) (map (gev peer xid (olen data)) ps) ->
  run_segments st evs = (st', outs) ->
  map snd (filter (own_out (peer, xid)) (combine evs outs))
  = repeat (None, false) (length ps - 1) ++ [(Some data, false)]
  /\ lookup (peer, xid) (r_frags st') = None.
Proof.
  intros Hf Ep Hne Hfresh Hperm Hrun.
  destruct (send_pieces_spec _ _ _ _ Hf Ep) as (Hc & Hcat & _).
  assert (Hps : ps <> []) by (intros ->; cbn in Hcat; congruence).
  pose proof (run_segments_proj (peer, xid) evs st st' outs Hrun) as P. rewrite Hfresh in P.
  apply (Permutation_map ev_local) in Hperm. rewrite ev_local_gev in Hperm.
  apply Permutation_map_inv in Hperm. destruct Hperm as (l & El & Hpl). rewrite El in P.
  rewrite (xrun_permutation data ps Hc Hcat l Hps Hpl) in P. injection P as <- <-. auto.
Qed.

Lemma Forall_image {A B} (f : A -> B) (P : A -> Prop) : forall l,
  Forall (fun e => exists p, P p /\ e = f p) l -> exists l', l = map f l' /\ Forall P l'.
Proof.
  induction 1 as [|e r (p & Hp & ->) _ (l' & -> & Hl')]; [exists []; auto|].
  exists (p :: l'). auto.
Qed.

Theorem repeats_safe data mtu xid peer ps st evs st' outs :
  feasible mtu xid (olen data) -> send_pieces data mtu xid = Some ps ->
  lookup (peer, xid) (r_frags st) = None ->
  Forall (fun e => exists p, In p ps /\ e = gev peer xid (olen data) p) (filter (own (peer, xid)) evs) ->
  run_segments st evs = (st', outs) ->
  Forall (out_safe data) (map snd (filter (own_out (peer, xid)) (combine evs outs)))
  /\ ((exists p, In p ps /\ ~ In (gev peer xid (olen data) p) evs) ->
      Forall (fun oe => oe = (None, false)) (map snd (filter (own_out (peer, xid)) (combine evs outs)))).
Proof.
  intros Hf Ep Hfresh Hdrawn Hrun.
  destruct (send_pieces_spec _ _ _ _ Hf Ep) as (Hc & Hcat & _).
  pose proof (run_segments_proj (peer, xid) evs st st' outs Hrun) as P. rewrite Hfresh in P.
  destruct (Forall_image _ _ _ Hdrawn) as (l & El & Hsub). rewrite El, ev_local_gev in P.
  rewrite Forall_forall in Hsub.
  split.
  - apply (xrun_safe data) in P; [exact (proj2 P) | exact I |].
    exact (incl_Forall Hsub (tiling_piece_of data ps Hc Hcat)).
  - intros (p & Hp & Hnot). destruct (xrun_no_early data ps Hc Hcat l Hsub) as (x1 & E1 & _).
    + exists p. split; [exact Hp|]. intros Hin. apply Hnot. apply (in_map (gev peer xid (olen data))) in Hin.
      rewrite <- El in Hin. apply filter_In in Hin. exact (proj1 Hin).
    + rewrite E1 in P. injection P as _ <-. apply Forall_forall. intros oe Hin. exact (repeat_spec _ _ _ Hin).
Qed.

Lemma hd_head m n rest : hd 0 (head m n ++ rest) = m * 32 + head_info n.
Proof. rewrite head_eq. reflexivity. Qed.

Lemma recv_loop_bundle f st peer buf :
  128 <= hd 0 buf <= 159 ->
  recv_loop (S f) st peer buf
  = match decode (length buf) buf with
    | Some (_, rest) => recv_loop f (queue_bundle st peer (firstn (length buf - length rest) buf)) peer rest
    | None => (st, 1)
    end.
Proof.
  destruct buf as [|b tl]; cbn [hd]; intros Hb; [lia|]. cbn [recv_loop].
  replace (b =? 0) with false by lia. replace ((20 <=? b) && (b <=? 23)) with false by lia.
  replace (b =? 6) with false by lia. replace (b / 32 =? 4) with true by lia. reflexivity.
Qed.

Lemma recv_loop_map f st peer buf :
  160 <= hd 0 buf <= 187 ->
  recv_loop (S f) st peer buf
  = match decode (length buf) buf with
    | Some (CMap kvs, rest) =>
        match recv_ext_map st peer kvs with
        | (st', 0) => recv_loop f st' peer rest
        | r => r
        end
    | Some _ => (st, 2)
    | None => (st, 1)
    end.
Proof.
  destruct buf as [|b tl]; cbn [hd]; intros Hb; [lia|]. cbn [recv_loop].
  replace (b =? 0) with false by lia. replace ((20 <=? b) && (b <=? 23)) with false by lia.
  replace (b =? 6) with false by lia. replace (b / 32 =? 4) with false by lia.
  replace (b / 32 =? 5) with true by lia. reflexivity.
Qed.

Lemma decode_whole v rest : wf v -> decode (length (encode v ++ rest)) (encode v ++ rest) = Some (v, rest).
Proof. intros Hwf. apply decode_encode; [exact Hwf|]. rewrite app_length. pose proof (size_le_length v). lia. Qed.

Lemma recv_loop_step f st peer m rest :
  wmsg_wf m ->
  recv_loop (S f) st peer (wenc m ++ rest)
  = match handle_msg st peer m with
    | (st', 0) => recv_loop f st' peer rest
    | r => r
    end.
Proof.
  intros Hwf. destruct m as [l|l|kvs]; cbn [wenc handle_msg wmsg_wf] in *.
  - rewrite recv_loop_bundle
      by (rewrite encode_CArr, <- app_assoc, hd_head; pose proof (head_info_le (N.of_nat (length l))); lia).
    rewrite decode_whole by exact Hwf. rewrite app_length, Nat.add_sub, firstn_len_app. reflexivity.
  - rewrite recv_loop_bundle by (cbn; lia).
    rewrite decode_indef_depth; [| exact Hwf |].
    + rewrite app_length, Nat.add_sub, firstn_len_app. reflexivity.
    + rewrite app_length, encode_indef_arr_length. pose proof (depth_le_size (CArr l)) as Hd.
      cbn [size] in Hd. pose proof (size_seq_le l). lia.
  - rewrite recv_loop_map
      by (rewrite encode_CMap, <- app_assoc, hd_head; pose proof (head_info_le (N.of_nat (length kvs))); lia).
    rewrite decode_whole by exact Hwf. reflexivity.
Qed.

Lemma wenc_nonempty m : (1 <= length (wenc m))%nat.
Proof.
  destruct m; cbn [wenc]; try apply encode_length_pos.
  rewrite encode_indef_arr_length. lia.
Qed.

Lemma recv_loop_msgs pad : (pad = [] \/ exists tl, pad = 0 :: tl) ->
  forall ms fuel st peer, Forall wmsg_wf ms -> (length ms < fuel)%nat ->
  recv_loop fuel st peer (concat (map wenc ms) ++ pad) = handle_all st peer ms.
Proof.
  intros Hpad. induction ms as [|m r IH]; intros fuel st peer Hwf Hfuel.
  - destruct fuel as [|f]; [cbn in Hfuel; lia|]. cbn [map concat app handle_all].
    destruct Hpad as [->|(tl & ->)]; reflexivity.
  - destruct fuel as [|f]; [lia|]. inversion Hwf as [|? ? Hm Hr]; subst.
    cbn [map concat handle_all]. rewrite <- app_assoc. rewrite recv_loop_step by exact Hm.
    destruct (handle_msg st peer m) as [st' code]. destruct code; [|reflexivity].
    apply IH; [exact Hr | cbn [length] in Hfuel; lia].
Qed.

Theorem multi_message st peer ms pad :
  Forall wmsg_wf ms -> (pad = [] \/ exists tl, pad = 0 :: tl) ->
  recv_datagram st peer (concat (map wenc ms) ++ pad) = handle_all st peer ms.
Proof.
  intros Hwf Hpad. unfold recv_datagram. apply recv_loop_msgs; [exact Hpad | exact Hwf |].
  rewrite app_length. apply Nat.lt_succ_r.
  assert (length ms <= length (concat (map wenc ms)))%nat; [|lia].
  clear. induction ms as [|m r IH]; cbn [map concat length]; [lia|].
  rewrite app_length. pose proof (wenc_nonempty m). lia.
Qed.

Corollary one_message st peer m : wmsg_wf m -> recv_datagram st peer (wenc m) = handle_all st peer [m].
Proof.
  intros Hwf. rewrite <- (multi_message st peer [m] []); [| constructor; [exact Hwf | constructor] | left; reflexivity].
  cbn [map concat]. rewrite !app_nil_r. reflexivity.
Qed.

Lemma recv_ext_map_seg st peer xid total off frag :
  recv_ext_map st peer [(CUint 2, CArr [CUint xid; CUint total; CUint off; CBstr frag])]
  = match recv_segment st peer xid total off frag with
    | (st', _, err) => (st', if err then 1 else 0)
    end.
Proof. reflexivity. Qed.

Theorem segment_datagram st peer xid total off frag :
  xid < two64 -> total < two64 -> off < two64 -> olen frag < two64 -> wf_bytes frag ->
  recv_datagram st peer (encode (seg_msg xid total off frag))
  = match recv_segment st peer xid total off frag with
    | (st', _, err) => (st', if err then 1 else 0)
    end.
Proof.
  intros Hx Ht Ho Hl Hw. rewrite gen_seg_msg. etransitivity; [apply (one_message st peer (WExt _))|].
  - cbn [wmsg_wf wf length fold_right fst snd]. unfold olen in Hl. repeat split; try lia; assumption.
  - cbn [handle_all handle_msg]. rewrite recv_ext_map_seg.
    destruct (recv_segment st peer xid total off frag) as [[st' out] err]. destruct err; reflexivity.
Qed.

Theorem bundle_datagram st peer m :
  wmsg_wf m -> (forall kvs, m <> WExt kvs) ->
  recv_datagram st peer (wenc m) = (queue_bundle st peer (wenc m), 0).
Proof.
  intros Hwf Hne. rewrite one_message by exact Hwf. cbn [handle_all].
  destruct m; cbn [handle_msg]; try reflexivity. exfalso. eapply Hne. reflexivity.
Qed.

Theorem infeasible_never_ends data mtu xid :
  ~ feasible mtu xid (olen data) -> mtu <= olen data -> data <> [] ->
  send_transfer data mtu xid = None
  /\ forall fuel, seg_loop fuel data (remain mtu xid (olen data)) init_offset = None.
Proof.
  intros Hf Hle Hne. split.
  - rewrite send_segmented by exact Hle. unfold send_pieces.
    rewrite send_pieces_diverges by assumption. reflexivity.
  - intros fuel. apply send_pieces_diverges; assumption.
Qed.

Theorem tiling data mtu xid :
  feasible mtu xid (olen data) -> mtu <= olen data ->
  exists ps, send_pieces data mtu xid = Some ps
    /\ send_transfer data mtu xid
       = Some (map (fun p => encode (seg_msg xid (olen data) (fst p) (snd p))) ps)
    /\ contiguous_from 0 ps /\ concat (map snd ps) = data.
Proof.
  intros Hf Hle. destruct (send_pieces_tiling data mtu xid Hf) as (ps & Ep & Hc & Hcat & _).
  exists ps. rewrite send_segmented by exact Hle. rewrite Ep. repeat split; assumption.
Qed.

Section PacingProofs.
  Variable D : Type.

  Lemma lane_of_app lane (a b : list (bool * D)) : lane_of D lane (a ++ b) = lane_of D lane a ++ lane_of D lane b.
  Proof. unfold lane_of. rewrite filter_app, map_app. reflexivity. Qed.

  Lemma lane_of_tagged lane tag (l : list D) :
    lane_of D lane (map (pair tag) l) = if Bool.eqb tag lane then l else [].
  Proof.
    unfold lane_of. induction l as [|x l IH]; cbn [map filter fst].
    - destruct (Bool.eqb tag lane); reflexivity.
    - destruct (Bool.eqb tag lane) eqn:E; cbn [map snd]; rewrite IH; reflexivity.
  Qed.

  Definition lane_q (lane : bool) (st : pq D) : list D := if lane then q_pri D st else q_paced D st.

  Lemma pq_step_conserves lane st e out st' :
    pq_step D st e = (out, st') ->
    lane_of D lane out ++ lane_q lane st' = lane_q lane st ++ enq_of D lane [e].
  Proof.
    destruct e as [ds|ds|n]; cbn [pq_step enq_of flat_map]; intros E; injection E as <- <-;
      destruct lane; cbn [lane_q q_pri q_paced lane_of filter map app]; rewrite ?app_nil_r; try reflexivity.
    - rewrite lane_of_app, !lane_of_tagged. cbn [Bool.eqb]. rewrite !app_nil_r. reflexivity.
    - rewrite lane_of_app, !lane_of_tagged. cbn [Bool.eqb app]. apply firstn_skipn.
  Qed.

  Theorem pacing_conserves lane : forall evs st out st',
    pq_run D st evs = (out, st') ->
    lane_of D lane out ++ lane_q lane st' = lane_q lane st ++ enq_of D lane evs.
  Proof.
    induction evs as [|e r IH]; intros st out st' E.
    - cbn in E. injection E as <- <-. cbn. rewrite app_nil_r. reflexivity.
    - cbn [pq_run] in E. destruct (pq_step D st e) as [o1 st1] eqn:E1.
      destruct (pq_run D st1 r) as [o2 st2] eqn:E2. injection E as <- <-.
      rewrite lane_of_app, <- app_assoc, (IH _ _ _ E2), app_assoc, (pq_step_conserves lane _ _ _ _ E1).
      rewrite <- app_assoc. f_equal. unfold enq_of. cbn [flat_map]. rewrite app_nil_r. reflexivity.
  Qed.

  Lemma pq_run_app l1 : forall l2 st,
    pq_run D st (l1 ++ l2)
    = let '(o1, s1) := pq_run D st l1 in let '(o2, s2) := pq_run D s1 l2 in (o1 ++ o2, s2).
  Proof.
    induction l1 as [|e r IH]; intros l2 st; cbn [app pq_run].
    - destruct (pq_run D st l2); reflexivity.
    - destruct (pq_step D st e) as [o1 s1]. rewrite IH. destruct (pq_run D s1 r) as [o2 s2].
      destruct (pq_run D s2 l2) as [o3 s3]. rewrite app_assoc. reflexivity.
  Qed.

  Theorem pacing_drains lane evs n out st' :
    pq_run D (mk_pq D [] []) (evs ++ [Tick D n]) = (out, st') ->
    (length (enq_of D false evs) <= n)%nat ->
    lane_of D lane out = enq_of D lane evs /\ q_pri D st' = [] /\ q_paced D st' = [].
  Proof.
    intros E Hn.
    rewrite pq_run_app in E. destruct (pq_run D (mk_pq D [] []) evs) as [o1 s1] eqn:E1.
    cbn [pq_run pq_step] in E. rewrite app_nil_r in E. injection E as <- <-.
    pose proof (pacing_conserves false _ _ _ _ E1) as Hp. cbn [lane_q q_paced app] in Hp.
    assert (Hlen : (length (q_paced D s1) <= n)%nat).
    { rewrite <- Hp in Hn. rewrite app_length in Hn. lia. }
    cbn [q_pri q_paced]. split; [|split; [reflexivity | apply skipn_all2; exact Hlen]].
    pose proof (pacing_conserves lane _ _ _ _ E1) as Hc.
    rewrite lane_of_app, lane_of_app, !lane_of_tagged. rewrite firstn_all2 by exact Hlen.
    destruct lane; cbn [Bool.eqb lane_q q_pri q_paced app] in *; rewrite ?app_nil_r; exact Hc.
  Qed.
End PacingProofs.

(** Non-vacuity: concrete inputs that meet the hypotheses of the theorems above. *)
Definition ex_data : bytes := [10; 11; 12; 13; 14; 15; 16; 17; 18; 19].

(** MTU 10, transfer id 0, ten octets: overhead 7, three octets per segment,
    four segments of 10, 10, 10 and 8 octets *)
Example ex_feasible : feasible 10 0 (olen ex_data) /\ 10 <= olen ex_data /\ ex_data <> [].
Proof. unfold feasible. vm_compute. repeat split; congruence. Qed.

Example ex_send :
  send_pieces ex_data 10 0 = Some [(0, [10; 11; 12]); (3, [13; 14; 15]); (6, [16; 17; 18]); (9, [19])]
  /\ option_map (map (fun d => length d)) (send_transfer ex_data 10 0) = Some [10; 10; 10; 8]%nat.
Proof. vm_compute. split; reflexivity. Qed.

(** the smallest MTU for which a ten-octet bundle with id 0 can be sent at all *)
Example ex_infeasible : ~ feasible 7 0 (olen ex_data) /\ send_transfer ex_data 7 0 = None
                        /\ feasible 8 0 (olen ex_data).
Proof. unfold feasible. vm_compute. repeat split; congruence. Qed.

(** the strict test: a bundle of exactly MTU octets is segmented *)
Example ex_equal_is_segmented :
  option_map (fun l => length l) (send_transfer ex_data 10 0) = Some 4%nat
  /\ send_transfer ex_data 11 0 = Some [ex_data].
Proof. vm_compute. split; reflexivity. Qed.

(** an arrival satisfying the hypotheses of [reassembly]: the four segments of
    peer 1 / transfer 0 in the order 2,0,3,1, interleaved with a segment of the
    same transfer id from peer 2 and one of transfer 7 from peer 1 *)
Definition ex_evs : list seg_event :=
  [(1, 0, 10, 6, [16; 17; 18]); (2, 0, 10, 6, [16; 17; 18]); (1, 0, 10, 0, [10; 11; 12]);
   (1, 7, 4, 0, [1; 2]); (1, 0, 10, 9, [19]); (1, 0, 10, 3, [13; 14; 15])].

Example ex_reassembly_hyps :
  exists ps, send_pieces ex_data 10 0 = Some ps
    /\ lookup (1, 0) (r_frags rstate0) = None
    /\ Permutation (filter (own (1, 0)) ex_evs) (map (gev 1 0 (olen ex_data)) ps).
Proof.
  eexists. split; [vm_compute; reflexivity|]. split; [reflexivity|].
  vm_compute.
  apply (Permutation_cons_app [_; _] [_]). cbn [app].
  apply perm_skip. apply perm_swap.
Qed.

Example ex_reassembly_run :
  map (fun oe => (opt_list (fst oe), snd oe)) (snd (run_segments rstate0 ex_evs))
  = [([], false); ([], false); ([], false); ([], false); ([], false); ([ex_data], false)]
  /\ r_queue (fst (run_segments rstate0 ex_evs)) = [(1, ex_data)].
Proof. vm_compute. split; reflexivity. Qed.

(** duplicates before and after completion: hypotheses of [repeats_safe] *)
Definition ex_dups : list seg_event :=
  [(1, 0, 10, 6, [16; 17; 18]); (1, 0, 10, 6, [16; 17; 18]); (1, 0, 10, 0, [10; 11; 12]);
   (1, 0, 10, 9, [19]); (1, 0, 10, 0, [10; 11; 12]); (1, 0, 10, 3, [13; 14; 15]);
   (1, 0, 10, 3, [13; 14; 15])].

Example ex_repeats_hyps :
  exists ps, send_pieces ex_data 10 0 = Some ps
    /\ Forall (fun e => exists p, In p ps /\ e = gev 1 0 (olen ex_data) p) (filter (own (1, 0)) ex_dups).
Proof.
  eexists. split; [vm_compute; reflexivity|].
  change (filter (own (1, 0)) ex_dups) with ex_dups. unfold ex_dups.
  repeat (apply Forall_cons;
          [match goal with
           | |- exists p, _ /\ (_, _, _, ?o, ?f) = _ => exists (o, f); split; [cbn; tauto | reflexivity]
           end|]).
  apply Forall_nil.
Qed.

Example ex_repeats_run :
  map (fun oe => (opt_list (fst oe), snd oe)) (snd (run_segments rstate0 ex_dups))
  = [([], false); ([], false); ([], false); ([], false); ([], false); ([ex_data], false); ([], false)]
  /\ map (fun kv => (fst kv, x_valid (snd kv))) (r_frags (fst (run_segments rstate0 ex_dups))) = [((1, 0), [(3, 6)])].
Proof. vm_compute. split; reflexivity. Qed.

(** several messages and padding in one datagram: two segments, an
    indefinite-length bundle, a definite-length bundle, padding *)
Definition ex_msgs : list wmsg :=
  [WExt [(CUint 2, CArr [CUint 0; CUint 10; CUint 6; CBstr [16; 17; 18]])];
   WBundleIndef [CUint 7; CArr [CUint 1; CBstr [1; 2; 3]]];
   WExt [(CUint 4, CTstr [100; 116; 110]); (CUint 2, CArr [CUint 0; CUint 10; CUint 0; CBstr [10; 11; 12]])];
   WBundle [CUint 1; CUint 2]].

Example ex_multi_hyps : Forall wmsg_wf ex_msgs.
Proof.
  repeat constructor; cbn [length]; try (cbv; reflexivity).
Qed.

Example ex_multi_run :
  let '(st, code) := recv_datagram rstate0 1 (concat (map wenc ex_msgs) ++ [0; 0; 161; 2]) in
  (code, r_queue st, map (fun kv => (fst kv, x_valid (snd kv))) (r_frags st))
  = (0, [(1, [159; 7; 130; 1; 67; 1; 2; 3; 255]); (1, [130; 1; 2])], [((1, 0), [(0, 3); (6, 9)])]).
Proof. vm_compute. reflexivity. Qed.

Example ex_segment_datagram_hyps :
  0 < two64 /\ 10 < two64 /\ 6 < two64 /\ olen [16; 17; 18] < two64 /\ wf_bytes [16; 17; 18].
Proof. repeat split; try (vm_compute; reflexivity). repeat constructor. Qed.

Example ex_pacing :
  run_pq [(1, [10; 11; 12]); (2, [1]); (0, [20]); (2, [0]); (0, [21; 22]); (2, [5])]
  = ([10; 20; 21; 22; 11; 12], ([], [])).
Proof. vm_compute. reflexivity. Qed.
