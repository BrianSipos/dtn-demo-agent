(** Codec lemmas for Model/TcpclMsg.v.

    Three facts about each probe ([parse_msg], [parse_contact], [parse_frame];
    for messages the names carry no prefix):
      [*_parse_encode] : wf x -> parse (encode x ++ rest) = Some (x, rest)
      [*_parse_sound]  : wf_bytes b -> parse b = Some (x, r) -> b = encode x ++ r /\ wf x /\ wf_bytes r
      [*_parse_app]    : parse b = Some (x, r) -> parse (b ++ e) = Some (x, r ++ e)
    The third, and "a complete frame is not empty", come from [consumes]: a
    probe reads a prefix of its input and nothing beyond it, and that property
    is closed under sequencing.  From the first: prefix-freeness / injectivity
    of the encoder; with the third: "a strict prefix of an encoding is never
    complete". *)
From Coq Require Import ZArith NArith List Bool Lia Arith.
From DTN Require Import Lib.Bytes Model.TcpclMsg Proofs.FrameProofs.
Import ListNotations.
Local Open Scope N_scope.

Lemma take_n_app a rest : take_n (length a) (a ++ rest) = Some (a, rest).
Proof.
  unfold take_n. rewrite app_length.
  destruct (Nat.ltb_spec (length a + length rest) (length a)) as [L|L]; [lia|].
  rewrite firstn_app, skipn_app, Nat.sub_diag, firstn_all, skipn_all. cbn [firstn skipn app].
  rewrite app_nil_r. reflexivity.
Qed.

Lemma take_n_sound n l a r :
  take_n n l = Some (a, r) -> l = a ++ r /\ length a = n.
Proof.
  unfold take_n. intros H.
  destruct (Nat.ltb_spec (length l) n) as [L|L]; [discriminate|].
  injection H as <- <-. split; [symmetry; apply firstn_skipn | rewrite firstn_length; lia].
Qed.

Lemma tn_len a rest : take_n (N.to_nat (N.of_nat (length a))) (a ++ rest) = Some (a, rest).
Proof. rewrite Nnat.Nat2N.id. apply take_n_app. Qed.

Lemma region_parse_encode known ext rest :
  wf_region known ext ->
  parse_ext_region known (be 4 (N.of_nat (length ext)) ++ ext ++ rest) = Some (ext, rest).
Proof.
  intros (L & _ & C). unfold parse_ext_region.
  rewrite take_be_app by exact L. rewrite tn_len, C. reflexivity.
Qed.

Lemma nil_region_wf known : wf_region known [].
Proof. repeat split. constructor. Qed.

Lemma region_parse_sound known l ext r :
  wf_bytes l -> parse_ext_region known l = Some (ext, r) ->
  l = be 4 (N.of_nat (length ext)) ++ ext ++ r /\ wf_region known ext /\ wf_bytes r.
Proof.
  unfold parse_ext_region. intros W H.
  destruct (take_be 4 l) as [[size l1]|] eqn:E1; [|discriminate].
  destruct (take_n (N.to_nat size) l1) as [[region l2]|] eqn:E2; [|discriminate].
  destruct (ext_count_ok known region) eqn:C; [|discriminate].
  injection H as <- <-.
  apply take_be_sound in E1; [|exact W]. destruct E1 as (-> & B & W1). change (256 ^ N.of_nat 4) with (2 ^ 32) in B.
  apply take_n_sound in E2. destruct E2 as (-> & Ln).
  apply wf_bytes_app in W1. destruct W1 as [Wr W2].
  assert (N.of_nat (length region) = size) as <- by lia.
  repeat split; assumption.
Qed.

(** Select the branch of [parse_body] for a literal message type. *)
Ltac body_id := unfold parse_body; cbn [N.eqb Pos.eqb]; cbv iota.

Theorem parse_encode : forall m rest,
  wf_msg m -> parse_msg (encode_msg m ++ rest) = Some (m, rest).
Proof.
  intros m rest W. destruct m; cbn [wf_msg] in W; unfold encode_msg;
    rewrite <- ?app_assoc; cbn [app parse_msg]; body_id.
  - destruct W as (Hf & Hx & Hr & Hs & Hl & Hd).
    rewrite take_be_app by exact Hf. rewrite take_be_app by exact Hx.
    destruct (has_start flags) eqn:HS.
    + rewrite <- app_assoc, region_parse_encode by exact Hr.
      rewrite take_be_app by exact Hl. rewrite tn_len. reflexivity.
    + rewrite (Hs eq_refl). cbn [app].
      rewrite take_be_app by exact Hl. rewrite tn_len. reflexivity.
  - destruct W as (Hf & Hx & Hl).
    rewrite take_be_app by exact Hf. rewrite take_be_app by exact Hx. rewrite take_be_app by exact Hl. reflexivity.
  - destruct W as (Hr & Hx). rewrite take_be_app by exact Hr. rewrite take_be_app by exact Hx. reflexivity.
  - reflexivity.
  - destruct W as (Hf & Hr). rewrite take_be_app by exact Hf. rewrite take_be_app by exact Hr. reflexivity.
  - destruct W as (Hf & Hr). rewrite take_be_app by exact Hf. rewrite take_be_app by exact Hr. reflexivity.
  - destruct W as (Hk & Hs & Hx & Hn & Hw & Hr).
    rewrite take_be_app by exact Hk. rewrite take_be_app by exact Hs. rewrite take_be_app by exact Hx.
    rewrite take_be_app by exact Hn. rewrite tn_len.
    rewrite region_parse_encode by exact Hr. reflexivity.
Qed.

(** One parse step on a hypothesis [H : match take_.. with .. end = Some _];
    the well-formedness of the buffer being read is found in the context.
    The numbers read are named [n], [n0], [n1], ... in reading order (bounds
    [B], [B0], ...), the octet strings [a], [a0], ... (lengths [L], [L0], ...),
    what is left to read [r], [r0], ..., a region [ext] with its facts [WR]. *)
Ltac sstep H :=
  match type of H with
  | match take_be ?k ?l with _ => _ end = Some _ =>
      let n := fresh "n" in let r := fresh "r" in let E := fresh "E" in
      let B := fresh "B" in let W' := fresh "W" in
      destruct (take_be k l) as [[n r]|] eqn:E; [|discriminate H];
      apply take_be_sound in E; [|assumption]; destruct E as (-> & B & W');
      (let w := eval cbv in (256 ^ N.of_nat k) in change (256 ^ N.of_nat k) with w in B)
  | match take_n ?k ?l with _ => _ end = Some _ =>
      let a := fresh "a" in let r := fresh "r" in let E := fresh "E" in
      let L := fresh "L" in let Wa := fresh "Wa" in let Wr := fresh "Wr" in
      destruct (take_n k l) as [[a r]|] eqn:E; [|discriminate H];
      apply take_n_sound in E; destruct E as (-> & L);
      match goal with Wx : wf_bytes (a ++ r) |- _ =>
        pose proof (proj1 (proj1 (wf_bytes_app a r) Wx)) as Wa;
        pose proof (proj2 (proj1 (wf_bytes_app a r) Wx)) as Wr end
  | match parse_ext_region ?k ?l with _ => _ end = Some _ =>
      let a := fresh "ext" in let r := fresh "r" in let E := fresh "E" in
      let WR := fresh "WR" in let W' := fresh "W" in
      destruct (parse_ext_region k l) as [[a r]|] eqn:E; [|discriminate H];
      apply region_parse_sound in E; [|assumption]; destruct E as (-> & WR & W')
  end.

Theorem parse_sound : forall b m r,
  wf_bytes b -> parse_msg b = Some (m, r) -> b = encode_msg m ++ r /\ wf_msg m /\ wf_bytes r.
Proof.
  intros b m r W H. destruct b as [|id l]; [discriminate|]. cbn [parse_msg] in H.
  inversion W as [|? ? _ Wl]; subst. clear W. change (wf_bytes l) in Wl. unfold parse_body in H.
  destruct (N.eqb_spec id 1) as [->|_].
  { do 2 sstep H.
    (* without START there is no region: the empty one *)
    destruct (has_start n) eqn:HS; [sstep H|pose proof (nil_region_wf xfer_ext_len) as WR].
    all: do 2 sstep H; injection H as <- <-.
    all: assert (N.of_nat (length a) = n1) as <- by lia.
    all: split; [|split]; [unfold encode_msg; rewrite HS, <- !app_assoc; reflexivity | | assumption].
    all: cbn [wf_msg]; destruct WR as (R1 & R2 & R3); repeat split; try assumption; try lia; congruence. }
  destruct (N.eqb_spec id 2) as [->|_].
  { do 3 sstep H. injection H as <- <-.
    split; [|split]; [unfold encode_msg; rewrite <- !app_assoc; reflexivity | cbn [wf_msg]; auto | assumption]. }
  destruct (N.eqb_spec id 3) as [->|_].
  { do 2 sstep H. injection H as <- <-.
    split; [|split]; [unfold encode_msg; rewrite <- !app_assoc; reflexivity | cbn [wf_msg]; auto | assumption]. }
  destruct (N.eqb_spec id 4) as [->|_].
  { injection H as <- <-. split; [|split]; [reflexivity | exact I | assumption]. }
  destruct (N.eqb_spec id 5) as [->|_].
  { do 2 sstep H. injection H as <- <-.
    split; [|split]; [unfold encode_msg; rewrite <- !app_assoc; reflexivity | cbn [wf_msg]; auto | assumption]. }
  destruct (N.eqb_spec id 6) as [->|_].
  { do 2 sstep H. injection H as <- <-.
    split; [|split]; [unfold encode_msg; rewrite <- !app_assoc; reflexivity | cbn [wf_msg]; auto | assumption]. }
  destruct (N.eqb_spec id 7) as [->|_]; [|discriminate].
  do 6 sstep H. injection H as <- <-.
  assert (N.of_nat (length a) = n2) as <- by lia.
  split; [|split].
  - unfold encode_msg. rewrite <- !app_assoc. reflexivity.
  - cbn [wf_msg]. destruct WR as (R1 & R2 & R3). repeat split; try assumption; lia.
  - assumption.
Qed.

Definition consumes {T} (p : bytes -> option (T * bytes)) : Prop :=
  forall b x r, p b = Some (x, r) -> exists u, b = u ++ r /\ forall e, p (u ++ e) = Some (x, e).

Lemma consumes_ret {T} (x : T) : consumes (fun b => Some (x, b)).
Proof. intros b y r [= <- <-]. exists []. split; reflexivity. Qed.

Lemma consumes_bind {S T} (p : bytes -> option (S * bytes)) (k : S -> bytes -> option (T * bytes)) :
  consumes p -> (forall a, consumes (k a)) ->
  consumes (fun b => match p b with Some (a, r) => k a r | None => None end).
Proof.
  intros Cp Ck b x r H. destruct (p b) as [[a r1]|] eqn:E; [|discriminate].
  destruct (Cp _ _ _ E) as (u & -> & Hu). destruct (Ck a _ _ _ H) as (w & -> & Hw).
  exists (u ++ w). split; [apply app_assoc|]. intros e. rewrite <- app_assoc, Hu. apply Hw.
Qed.

Lemma consumes_if {T} (c : bool) (p q : bytes -> option (T * bytes)) :
  consumes p -> consumes q -> consumes (fun b => if c then p b else q b).
Proof. destruct c; auto. Qed.

Lemma consumes_none {T} : consumes (fun _ : bytes => @None (T * bytes)).
Proof. intros b x r H. discriminate H. Qed.

Lemma consumes_cut {T} (f : bytes -> T) k :
  consumes (fun l => if (length l <? k)%nat then None else Some (f (firstn k l), skipn k l)).
Proof.
  intros b a r H. destruct (Nat.ltb_spec (length b) k) as [L|L]; [discriminate|].
  injection H as <- <-. exists (firstn k b). split; [symmetry; apply firstn_skipn|]. intros e.
  assert (Lf : length (firstn k b) = k) by (rewrite firstn_length; lia).
  pose proof (take_n_app (firstn k b) e) as E. rewrite Lf in E. unfold take_n in E.
  destruct (length (firstn k b ++ e) <? k)%nat; [discriminate E|]. injection E as -> ->. reflexivity.
Qed.

Lemma consumes_take_n k : consumes (take_n k).
Proof. exact (consumes_cut (fun x => x) k). Qed.
Lemma consumes_take_be k : consumes (take_be k).
Proof. exact (consumes_cut unbe k). Qed.

Lemma consumes_app {T} (p : bytes -> option (T * bytes)) : consumes p ->
  forall b e x r, p b = Some (x, r) -> p (b ++ e) = Some (x, r ++ e).
Proof. intros C b e x r H. destruct (C b x r H) as (u & -> & Hu). rewrite <- app_assoc. apply Hu. Qed.

Lemma consumes_shrinks {T} (p : bytes -> option (T * bytes)) : consumes p -> p [] = None ->
  forall b x r, p b = Some (x, r) -> (length r < length b)%nat.
Proof.
  intros C N b x r H. destruct (C b x r H) as (u & -> & Hu).
  destruct u; [specialize (Hu []); cbn [app] in Hu; congruence|]. rewrite app_length. cbn [length]. lia.
Qed.

(** Walk a probe written with [match take_.. with]: one combinator per construct. *)
Ltac consumes_go :=
  repeat first [ apply consumes_ret | apply consumes_none | apply consumes_take_be | apply consumes_take_n
               | apply consumes_bind; [|intro] | apply consumes_if ].

Lemma consumes_region known : consumes (parse_ext_region known).
Proof. unfold parse_ext_region. consumes_go. Qed.

Lemma consumes_msg : consumes parse_msg.
Proof.
  intros [|id l] m r H; [discriminate H|]. cbn [parse_msg] in H.
  assert (C : consumes (parse_body id)) by (unfold parse_body; consumes_go; apply consumes_region).
  destruct (C l m r H) as (u & -> & Hu). exists (id :: u). split; [reflexivity|exact Hu].
Qed.

Lemma consumes_contact : consumes parse_contact.
Proof. unfold parse_contact. consumes_go. Qed.

Lemma consumes_frame ph : consumes (parse_frame ph).
Proof.
  unfold parse_frame. apply consumes_if; (apply consumes_bind; [|intro; apply consumes_ret]);
    [apply consumes_msg|apply consumes_contact].
Qed.

Theorem parse_app : forall b e m r,
  parse_msg b = Some (m, r) -> parse_msg (b ++ e) = Some (m, r ++ e).
Proof. exact (consumes_app parse_msg consumes_msg). Qed.

Theorem contact_parse_encode : forall c rest,
  wf_contact c -> parse_contact (encode_contact c ++ rest) = Some (c, rest).
Proof.
  intros [magic ver flags] rest (Lm & _ & Hv & Hf). cbn [ch_magic ch_version ch_flags] in *.
  unfold encode_contact, parse_contact. cbn [ch_magic ch_version ch_flags].
  rewrite <- !app_assoc. rewrite <- Lm at 1. rewrite take_n_app.
  rewrite take_be_app by exact Hv. rewrite take_be_app by exact Hf. reflexivity.
Qed.

Theorem contact_parse_sound : forall b c r,
  wf_bytes b -> parse_contact b = Some (c, r) -> b = encode_contact c ++ r /\ wf_contact c /\ wf_bytes r.
Proof.
  intros b c r W H. unfold parse_contact in H.
  do 3 sstep H. injection H as <- <-.
  split; [|split].
  - unfold encode_contact. cbn [ch_magic ch_version ch_flags]. rewrite <- !app_assoc. reflexivity.
  - unfold wf_contact. cbn [ch_magic ch_version ch_flags]. auto.
  - assumption.
Qed.

Theorem contact_parse_app : forall b e c r,
  parse_contact b = Some (c, r) -> parse_contact (b ++ e) = Some (c, r ++ e).
Proof. exact (consumes_app parse_contact consumes_contact). Qed.

Lemma encode_contact_length c : wf_contact c -> length (encode_contact c) = 6%nat.
Proof.
  intros (Lm & _). unfold encode_contact. rewrite !app_length, !be_length, Lm. reflexivity.
Qed.

Definition accepts (ph : bool) (f : frame) : Prop :=
  wf_frame f /\ match f with FContact _ => ph = false | FMsg _ => ph = true end.

Theorem frame_parse_encode : forall ph f rest,
  accepts ph f -> parse_frame ph (encode_frame f ++ rest) = Some (f, rest).
Proof.
  intros ph [c|m] rest [W P]; subst ph; cbn [parse_frame encode_frame wf_frame] in *.
  - rewrite contact_parse_encode by exact W. reflexivity.
  - rewrite parse_encode by exact W. reflexivity.
Qed.

Theorem frame_parse_sound : forall ph b f r,
  wf_bytes b -> parse_frame ph b = Some (f, r) -> b = encode_frame f ++ r /\ accepts ph f /\ wf_bytes r.
Proof.
  intros [|] b f r W H; cbn [parse_frame] in H.
  - destruct (parse_msg b) as [[m r']|] eqn:E; [|discriminate]. injection H as <- <-.
    apply parse_sound in E; [|exact W]. destruct E as (-> & Wm & Wr).
    split; [reflexivity|]. split; [split; [exact Wm|reflexivity]|exact Wr].
  - destruct (parse_contact b) as [[c r']|] eqn:E; [|discriminate]. injection H as <- <-.
    apply contact_parse_sound in E; [|exact W]. destruct E as (-> & Wm & Wr).
    split; [reflexivity|]. split; [split; [exact Wm|reflexivity]|exact Wr].
Qed.

Theorem frame_parse_app : forall ph b e f r,
  parse_frame ph b = Some (f, r) -> parse_frame ph (b ++ e) = Some (f, r ++ e).
Proof. intros ph. exact (consumes_app _ (consumes_frame ph)). Qed.

Theorem frame_parse_shrinks : forall ph b f r,
  parse_frame ph b = Some (f, r) -> (length r < length b)%nat.
Proof. intros ph. apply consumes_shrinks; [apply consumes_frame|destruct ph; reflexivity]. Qed.

Section Derived.
  Variables (T : Type) (enc : T -> bytes) (par : bytes -> option (T * bytes)) (wf : T -> Prop).
  Hypothesis PE : forall x rest, wf x -> par (enc x ++ rest) = Some (x, rest).
  Hypothesis PA : forall b e x r, par b = Some (x, r) -> par (b ++ e) = Some (x, r ++ e).

  Lemma gen_prefix_free : forall a b x y, wf a -> wf b -> enc a ++ x = enc b ++ y -> a = b /\ x = y.
  Proof.
    intros a b x y Wa Wb E. pose proof (PE a x Wa) as P1. rewrite E, (PE b y Wb) in P1.
    injection P1 as -> ->. split; reflexivity.
  Qed.

  Lemma gen_inj : forall a b, wf a -> wf b -> enc a = enc b -> a = b.
  Proof.
    intros a b Wa Wb E. apply (gen_prefix_free a b [] [] Wa Wb). rewrite E. reflexivity.
  Qed.

  Lemma gen_prefix_none : forall x p q, wf x -> enc x = p ++ q -> q <> [] -> par p = None.
  Proof.
    intros x p q W E NE. destruct (par p) as [[y r]|] eqn:P; [|reflexivity].
    pose proof (PA _ q _ _ P) as P2. rewrite <- E in P2.
    pose proof (PE x [] W) as P3. rewrite app_nil_r in P3. rewrite P3 in P2.
    injection P2 as _ E2. destruct r; destruct q; try discriminate. congruence.
  Qed.
End Derived.

Theorem encode_prefix_free : forall a b x y,
  wf_msg a -> wf_msg b -> encode_msg a ++ x = encode_msg b ++ y -> a = b /\ x = y.
Proof. exact (gen_prefix_free msg encode_msg parse_msg wf_msg parse_encode). Qed.

Theorem encode_inj : forall a b, wf_msg a -> wf_msg b -> encode_msg a = encode_msg b -> a = b.
Proof. exact (gen_inj msg encode_msg parse_msg wf_msg parse_encode). Qed.

Theorem C07_prefix : forall m p q,
  wf_msg m -> encode_msg m = p ++ q -> q <> [] -> parse_msg p = None.
Proof. exact (gen_prefix_none msg encode_msg parse_msg wf_msg parse_encode parse_app). Qed.

Theorem encode_nonempty : forall m, encode_msg m <> [].
Proof. intros m. destruct m; unfold encode_msg; cbn [app]; discriminate. Qed.

Theorem contact_prefix_free : forall a b x y,
  wf_contact a -> wf_contact b -> encode_contact a ++ x = encode_contact b ++ y -> a = b /\ x = y.
Proof. exact (gen_prefix_free contact encode_contact parse_contact wf_contact contact_parse_encode). Qed.

Theorem contact_prefix : forall c p q,
  wf_contact c -> encode_contact c = p ++ q -> q <> [] -> parse_contact p = None.
Proof. exact (gen_prefix_none contact encode_contact parse_contact wf_contact contact_parse_encode contact_parse_app). Qed.

Theorem frame_prefix : forall ph f p q,
  accepts ph f -> encode_frame f = p ++ q -> q <> [] -> parse_frame ph p = None.
Proof.
  intros ph. exact (gen_prefix_none frame encode_frame (parse_frame ph) (accepts ph)
                      (frame_parse_encode ph) (frame_parse_app ph)).
Qed.

Theorem frame_prefix_free : forall ph a b x y,
  accepts ph a -> accepts ph b -> encode_frame a ++ x = encode_frame b ++ y -> a = b /\ x = y.
Proof.
  intros ph. exact (gen_prefix_free frame encode_frame (parse_frame ph) (accepts ph) (frame_parse_encode ph)).
Qed.

(** Well-formedness of a concatenation of fields, piece by piece. *)
Ltac wfb :=
  repeat match goal with
  | |- wf_bytes (_ ++ _) => apply wf_bytes_app; split
  | |- wf_bytes (be _ _) => apply be_wf
  | |- wf_bytes [] => constructor
  | |- wf_bytes [_] => constructor; [unfold wf_byte; lia|constructor]
  | |- wf_bytes _ => assumption
  end.

Lemma encode_msg_wf : forall m, wf_msg m -> wf_bytes (encode_msg m).
Proof.
  intros m W. destruct m; cbn [wf_msg] in W; unfold encode_msg.
  - destruct W as (_ & _ & (_ & Wr & _) & _ & _ & Wd). destruct (has_start flags); wfb.
  - wfb.
  - wfb.
  - wfb.
  - wfb.
  - wfb.
  - destruct W as (_ & _ & _ & _ & Wn & (_ & Wr & _)). wfb.
Qed.

Lemma encode_contact_wf : forall c, wf_contact c -> wf_bytes (encode_contact c).
Proof. intros c (_ & Wm & _). unfold encode_contact. wfb. Qed.

Lemma encode_frame_wf : forall f, wf_frame f -> wf_bytes (encode_frame f).
Proof. intros [c|m] W; [apply encode_contact_wf|apply encode_msg_wf]; exact W. Qed.

Lemma ext_encode_length e : (5 <= length (encode_ext e))%nat.
Proof. unfold encode_ext. rewrite !app_length, !be_length. lia. Qed.

Lemma parse_exts_S known f l : l <> [] ->
  parse_exts known (S f) l =
  match take_be 1 l with None => None | Some (fl, l1) =>
  match take_be 2 l1 with None => None | Some (ty, l2) =>
  match take_be 2 l2 with None => None | Some (len, l3) =>
  match take_n (N.to_nat len) l3 with None => None | Some (val, l4) =>
    if ext_len_ok known ty (N.to_nat len) then
      match parse_exts known f l4 with Some items => Some (mkExt fl ty val :: items) | None => None end
    else None
  end end end end.
Proof. destruct l; [congruence|reflexivity]. Qed.

Lemma len5_nonempty (l : bytes) : (5 <= length l)%nat -> l <> [].
Proof. destruct l; cbn [length]; [lia|discriminate]. Qed.

Lemma parse_exts_encode known : forall items fuel,
  Forall (wf_ext known) items -> (length (encode_exts items) < fuel)%nat ->
  parse_exts known fuel (encode_exts items) = Some items.
Proof.
  induction items as [|it items IH]; intros fuel W F.
  - destruct fuel; reflexivity.
  - inversion W as [|? ? Wi Ws]; subst.
    pose proof (ext_encode_length it) as L5.
    destruct Wi as (Hf & Ht & Hl & Hv & Hk).
    unfold encode_exts in *. cbn [map concat] in *. rewrite app_length in F.
    destruct fuel as [|fuel]; [lia|].
    rewrite parse_exts_S by (apply len5_nonempty; rewrite app_length; lia).
    destruct it as [fl ty val]. cbn [ei_flags ei_type ei_val] in *.
    unfold encode_ext in *. cbn [ei_flags ei_type ei_val] in *. rewrite <- !app_assoc.
    rewrite take_be_app by exact Hf. rewrite take_be_app by exact Ht. rewrite take_be_app by exact Hl. rewrite tn_len.
    rewrite Nnat.Nat2N.id, Hk.
    rewrite IH; [reflexivity|exact Ws|lia].
Qed.

Theorem spec_exts_encode known items :
  Forall (wf_ext known) items -> spec_exts known (encode_exts items) = Some items.
Proof. intros W. unfold spec_exts. apply parse_exts_encode; [exact W|lia]. Qed.

Lemma parse_exts_sound known : forall fuel l items,
  wf_bytes l -> parse_exts known fuel l = Some items ->
  l = encode_exts items /\ Forall (wf_ext known) items.
Proof.
  induction fuel as [|fuel IH]; intros l items W H.
  - destruct l; [|discriminate]. injection H as <-. split; [reflexivity|constructor].
  - destruct l as [|b0 l']; [injection H as <-; split; [reflexivity|constructor]|].
    rewrite parse_exts_S in H by discriminate.
    do 4 sstep H.
    destruct (ext_len_ok known n0 (N.to_nat n1)) eqn:K; [|discriminate].
    destruct (parse_exts known fuel r0) as [its|] eqn:P; [|discriminate].
    injection H as <-. apply IH in P; [|assumption]. destruct P as (-> & Ws).
    assert (EL : N.of_nat (length a) = n1) by lia.
    split.
    + unfold encode_exts. cbn [map concat]. unfold encode_ext. cbn [ei_flags ei_type ei_val].
      rewrite EL, <- !app_assoc. reflexivity.
    + constructor; [|exact Ws]. unfold wf_ext. cbn [ei_flags ei_type ei_val].
      rewrite L in *. repeat split; try assumption; lia.
Qed.

Theorem spec_exts_sound known region items :
  wf_bytes region -> spec_exts known region = Some items ->
  region = encode_exts items /\ Forall (wf_ext known) items.
Proof. apply parse_exts_sound. Qed.

Lemma scapy_exts_S known f l : l <> [] ->
  scapy_exts known (S f) l =
  match take_be 1 l with None => [XRaw l] | Some (fl, l1) =>
  match take_be 2 l1 with None => [XRaw l] | Some (ty, l2) =>
  match take_be 2 l2 with None => [XRaw l] | Some (len, rest) =>
    if N.of_nat (length rest) =? len then
      match known ty with
      | None => [XItem fl ty len rest]
      | Some k =>
          if (length rest <=? k)%nat then [XItem fl ty len rest]
          else XItem fl ty len (firstn k rest) :: scapy_exts known f (skipn k rest)
      end
    else [XRaw l]
  end end end.
Proof. destruct l; [congruence|reflexivity]. Qed.

(** What the implementation's dissector reports.  A single well-formed item
    (what the implementation sends by default: the Transfer Length
    extension) is seen as that item ... *)
Theorem scapy_view_single known it :
  wf_ext known it ->
  scapy_view known (encode_exts [it])
  = [XItem (ei_flags it) (ei_type it) (N.of_nat (length (ei_val it))) (ei_val it)].
Proof.
  intros Wi. pose proof (ext_encode_length it) as L5.
  destruct Wi as (Hf & Ht & Hl & Hv & Hk). destruct it as [fl ty val]. cbn [ei_flags ei_type ei_val] in *.
  unfold scapy_view, encode_exts. cbn [map concat]. rewrite app_nil_r.
  rewrite scapy_exts_S by (apply len5_nonempty; exact L5).
  unfold encode_ext. cbn [ei_flags ei_type ei_val].
  rewrite take_be_app by exact Hf. rewrite take_be_app by exact Ht.
  rewrite take_be_app by exact Hl.
  rewrite N.eqb_refl. unfold ext_len_ok in Hk.
  destruct (known ty) as [k|]; [|reflexivity].
  apply Nat.eqb_eq in Hk. rewrite Hk, Nat.leb_refl. reflexivity.
Qed.

Theorem scapy_view_nil known : scapy_view known (encode_exts []) = [].
Proof. reflexivity. Qed.

Theorem scapy_view_le1 known items :
  Forall (wf_ext known) items -> (length items <= 1)%nat ->
  scapy_view known (encode_exts items) = map item_view items.
Proof.
  intros W L. destruct items as [|it [|it2 items]].
  - reflexivity.
  - inversion W; subst. rewrite scapy_view_single by assumption. reflexivity.
  - cbn [length] in L. lia.
Qed.

(** ... but two or more well-formed items come out as one Raw blob holding
    the whole region (TlvHead's length check sees the following items as
    part of the first item's payload). *)
Theorem scapy_view_ge2 known items :
  Forall (wf_ext known) items -> (2 <= length items)%nat ->
  scapy_view known (encode_exts items) = [XRaw (encode_exts items)].
Proof.
  intros W L. destruct items as [|it1 [|it2 items]]; cbn [length] in L; try lia.
  inversion W as [|? ? (Hf & Ht & Hl & Hv & Hk) _]; subst.
  pose proof (ext_encode_length it2) as L2.
  unfold scapy_view, encode_exts. cbn [map concat].
  set (tail := encode_ext it2 ++ concat (map encode_ext items)).
  assert (LT : (5 <= length tail)%nat) by (unfold tail; rewrite app_length; lia).
  clearbody tail.
  destruct it1 as [fl ty val]. cbn [ei_flags ei_type ei_val] in *.
  unfold encode_ext. cbn [ei_flags ei_type ei_val]. rewrite <- !app_assoc.
  rewrite scapy_exts_S by (apply len5_nonempty; rewrite !app_length, !be_length; lia).
  rewrite take_be_app by exact Hf. rewrite take_be_app by exact Ht. rewrite take_be_app by exact Hl.
  destruct (N.eqb_spec (N.of_nat (length (val ++ tail))) (N.of_nat (length val))) as [E|_]; [|reflexivity].
  rewrite app_length in E. lia.
Qed.

(** The receive loop over [parse_frame]: instances of Proofs/FrameProofs.v. *)

Lemma rx_loop_eq St phase alive handle : forall fuel s buf,
  rx_loop St phase alive handle fuel s buf = loop N St frame phase alive parse_frame handle fuel s buf.
Proof. reflexivity. Qed.

Lemma rx_recv_eq St phase alive handle : forall st c,
  rx_recv St phase alive handle st c = recv N St frame phase alive parse_frame handle st c.
Proof. reflexivity. Qed.

(** [consistent] of Proofs/FrameProofs.v at [accepts]: contact header first,
    then messages, for a handler that sets [_in_conn] on the contact header. *)
Section RxConsistent.
  Variable St : Type.
  Variable phase : St -> bool.
  Variable alive : St -> bool.
  Variable handle : St -> frame -> St.
  Fixpoint rx_consistent (s : St) (fs : list frame) : Prop :=
    match fs with
    | [] => True
    | f :: fs' => alive s = true /\ accepts (phase s) f /\ rx_consistent (handle s f) fs'
    end.
End RxConsistent.

Lemma rx_consistent_eq St phase alive handle : forall s fs,
  rx_consistent St phase alive handle s fs = consistent St frame phase alive handle accepts s fs.
Proof. reflexivity. Qed.

Section Inst.
  Variable St : Type.
  Variable phase : St -> bool.
  Variable alive : St -> bool.
  Variable handle : St -> frame -> St.
  Notation rcv := (rx_recv St phase alive handle).

  Theorem rx_recv_recv : forall st c1 c2, rcv (rcv st c1) c2 = rcv st (c1 ++ c2).
  Proof. exact (recv_recv N St frame phase alive parse_frame handle frame_parse_shrinks frame_parse_app). Qed.

  Theorem rx_split_invariance : forall chunks c st,
    fold_left rcv chunks (rcv st c) = rcv st (c ++ concat chunks).
  Proof. exact (split_invariance N St frame phase alive parse_frame handle frame_parse_shrinks frame_parse_app). Qed.

  Theorem rx_stream_only : forall chunks1 chunks2 s,
    concat chunks1 = concat chunks2 ->
    fold_left rcv chunks1 (s, []) = fold_left rcv chunks2 (s, []).
  Proof. exact (stream_only N St frame phase alive parse_frame handle frame_parse_shrinks frame_parse_app). Qed.

  Theorem rx_stream : forall fs s,
    rx_consistent St phase alive handle s fs ->
    rcv (s, []) (concat (map encode_frame fs)) = (fold_left handle fs s, []).
  Proof.
    exact (stream_theorem N St frame phase alive parse_frame handle frame_parse_shrinks
             encode_frame accepts frame_parse_encode).
  Qed.

  Theorem rx_stream_cut : forall fs1 f fs2 s q q',
    rx_consistent St phase alive handle s (fs1 ++ f :: fs2) -> encode_frame f = q ++ q' -> q' <> [] ->
    rcv (s, []) (concat (map encode_frame fs1) ++ q) = (fold_left handle fs1 s, q).
  Proof.
    exact (stream_cut N St frame phase alive parse_frame handle frame_parse_shrinks frame_parse_app
             encode_frame accepts frame_parse_encode frame_prefix).
  Qed.

  Theorem rx_stream_any_cut : forall fs1 f fs2 s q q' chunks,
    rx_consistent St phase alive handle s (fs1 ++ f :: fs2) -> encode_frame f = q ++ q' -> q' <> [] ->
    concat chunks = concat (map encode_frame fs1) ++ q ->
    fold_left rcv chunks (s, []) = (fold_left handle fs1 s, q).
  Proof.
    exact (stream_any_cut N St frame phase alive parse_frame handle frame_parse_shrinks frame_parse_app
             encode_frame accepts frame_parse_encode frame_prefix).
  Qed.

  Theorem rx_stream_any_cut_all : forall fs s chunks,
    rx_consistent St phase alive handle s fs -> concat chunks = concat (map encode_frame fs) ->
    fold_left rcv chunks (s, []) = (fold_left handle fs s, []).
  Proof.
    exact (stream_any_cut_all N St frame phase alive parse_frame handle frame_parse_shrinks frame_parse_app
             encode_frame accepts frame_parse_encode).
  Qed.

  (** The final octets of a frame arrive: it is acted on in that very read. *)
  Theorem rx_complete_acted_on : forall s f p q,
    alive s = true -> accepts (phase s) f -> encode_frame f = p ++ q ->
    rcv (s, p) q = (handle s f, []).
  Proof.
    intros s f p q AL A E.
    change (rcv (s, p) q) with (rcv (s, []) (p ++ q)). rewrite <- E.
    pose proof (rx_stream [f] s (conj AL (conj A I))) as R. cbn [map concat fold_left] in R.
    rewrite app_nil_r in R. exact R.
  Qed.

  Theorem rx_prefix_untouched : forall s f p q,
    accepts (phase s) f -> encode_frame f = p ++ q -> q <> [] ->
    rcv (s, []) p = (s, p).
  Proof.
    intros s f p q A E NE.
    apply (recv_partial N St frame phase alive parse_frame handle), (frame_prefix _ _ _ _ A E NE).
  Qed.

  Theorem rx_closed_inert : forall s buf c, alive s = false -> rcv (s, buf) c = (s, buf ++ c).
  Proof.
    intros s buf c AL. unfold rx_recv. cbn [fst snd]. cbn [rx_loop].
    destruct (buf ++ c); [reflexivity|]. rewrite AL. reflexivity.
  Qed.
End Inst.

Lemma log_fold : forall fs fl lg,
  fold_left log_handle fs (fl, lg) = (fold_left log_flags fs fl, lg ++ fs).
Proof. exact (lhandle_fold (bool * bool) frame log_flags). Qed.

Lemma log_flags_msgs : forall ms fl, fold_left log_flags (map FMsg ms) fl = fl.
Proof. induction ms as [|m ms IH]; intros fl; [reflexivity|]. cbn [map fold_left log_flags]. apply IH. Qed.

Lemma log_consistent_msgs : forall ms lg,
  Forall wf_msg ms -> rx_consistent log_state log_phase log_alive log_handle ((true, true), lg) (map FMsg ms).
Proof.
  induction ms as [|m ms IH]; intros lg W; cbn [map rx_consistent]; [exact I|].
  inversion W; subst. split; [reflexivity|]. split; [split; [assumption|reflexivity]|]. apply IH. assumption.
Qed.

Lemma log_consistent : forall c ms,
  wf_contact c -> contact_ok c = true -> Forall wf_msg ms ->
  rx_consistent log_state log_phase log_alive log_handle ((false, true), []) (FContact c :: map FMsg ms).
Proof.
  intros c ms Wc Ok Wm. cbn [rx_consistent]. split; [reflexivity|]. split; [split; [exact Wc|reflexivity]|].
  unfold log_handle, log_flags. cbn [fst snd app]. rewrite Ok.
  apply log_consistent_msgs. exact Wm.
Qed.

Lemma log_flags_stream : forall c ms,
  contact_ok c = true -> fold_left log_flags (FContact c :: map FMsg ms) (false, true) = (true, true).
Proof. intros c ms Ok. cbn [fold_left log_flags]. rewrite Ok. cbn [snd]. apply log_flags_msgs. Qed.

Theorem rx_log_stream : forall c ms,
  wf_contact c -> contact_ok c = true -> Forall wf_msg ms ->
  rx_log_recv rx_init (concat (map encode_frame (FContact c :: map FMsg ms)))
  = (((true, true), FContact c :: map FMsg ms), []).
Proof.
  intros c ms Wc Ok Wm.
  pose proof (rx_stream log_state log_phase log_alive log_handle _ _ (log_consistent c ms Wc Ok Wm)) as R.
  rewrite log_fold, (log_flags_stream c ms Ok) in R. exact R.
Qed.

Lemma prefix_shape : forall (c : contact) (ms : list msg) (fs1 : list frame) (f : frame) (fs2 : list frame),
  FContact c :: map FMsg ms = fs1 ++ f :: fs2 ->
  fs1 = [] \/ exists ms1, fs1 = FContact c :: map FMsg ms1.
Proof.
  intros c ms fs1 f fs2 E. destruct fs1 as [|g fs1]; [left; reflexivity|right].
  cbn [app] in E. injection E as <- E.
  apply map_eq_app in E. destruct E as (ms1 & _ & _ & <- & _). exists ms1. reflexivity.
Qed.

(** Any way of cutting any prefix of a well-formed stream into reads: exactly
    the frames whose final octet has arrived have been acted on, in order, and
    the octets of the next, incomplete one are kept. *)
Theorem rx_log_any_cut : forall c ms fs1 f fs2 q q' chunks,
  wf_contact c -> contact_ok c = true -> Forall wf_msg ms ->
  FContact c :: map FMsg ms = fs1 ++ f :: fs2 ->
  encode_frame f = q ++ q' -> q' <> [] ->
  concat chunks = concat (map encode_frame fs1) ++ q ->
  fold_left rx_log_recv chunks rx_init
  = (((match fs1 with [] => false | _ => true end, true), fs1), q).
Proof.
  intros c ms fs1 f fs2 q q' chunks Wc Ok Wm EF E NE EC.
  pose proof (log_consistent c ms Wc Ok Wm) as C. rewrite EF in C.
  pose proof (rx_stream_any_cut log_state log_phase log_alive log_handle fs1 f fs2 ((false, true), []) q q' chunks C E NE EC) as R.
  rewrite log_fold in R.
  destruct (prefix_shape c ms fs1 f fs2 EF) as [->|[ms1 ->]]; [exact R|].
  rewrite (log_flags_stream c ms1 Ok) in R. exact R.
Qed.

Theorem rx_log_any_cut_all : forall c ms chunks,
  wf_contact c -> contact_ok c = true -> Forall wf_msg ms ->
  concat chunks = concat (map encode_frame (FContact c :: map FMsg ms)) ->
  fold_left rx_log_recv chunks rx_init = (((true, true), FContact c :: map FMsg ms), []).
Proof.
  intros c ms chunks Wc Ok Wm EC.
  pose proof (rx_stream_any_cut_all log_state log_phase log_alive log_handle _ ((false, true), []) chunks (log_consistent c ms Wc Ok Wm) EC) as R.
  rewrite log_fold, (log_flags_stream c ms Ok) in R. exact R.
Qed.

Theorem rx_log_mono : forall st c, exists more,
  snd (fst (rx_log_recv st c)) = snd (fst st) ++ more.
Proof. exact (lrecv_mono N (bool * bool) frame fst snd parse_frame log_flags). Qed.

(** Boolean well-formedness, for the concrete examples. *)
Lemma wf_msgb_wf : forall m, wf_msgb m = true -> wf_msg m.
Proof.
  intros m H. destruct m; cbn [wf_msgb wf_msg] in *; unfold wf_regionb, wf_region in *;
    repeat match goal with
    | H : _ && _ = true |- _ => apply andb_true_iff in H; destruct H
    end;
    repeat match goal with
    | H : (_ <? _) = true |- _ => apply N.ltb_lt in H
    | H : wf_bytesb _ = true |- _ => apply wf_bytesb_spec in H
    end; repeat split; try assumption.
  intros HS. match goal with H : has_start _ || _ = true |- _ => rewrite HS in H; cbn [orb] in H end.
  destruct ext; [reflexivity|discriminate].
Qed.

Lemma wf_extb_wf known e : wf_extb known e = true -> wf_ext known e.
Proof.
  unfold wf_extb, wf_ext. intros H.
  repeat match goal with
  | H : _ && _ = true |- _ => apply andb_true_iff in H; destruct H
  end;
  repeat match goal with
  | H : (_ <? _) = true |- _ => apply N.ltb_lt in H
  | H : wf_bytesb _ = true |- _ => apply wf_bytesb_spec in H
  end; repeat split; assumption.
Qed.

Lemma wf_exts_forallb known items : forallb (wf_extb known) items = true -> Forall (wf_ext known) items.
Proof. rewrite forallb_Forall. apply Forall_impl, wf_extb_wf. Qed.

Lemma wf_msgs_forallb ms : forallb wf_msgb ms = true -> Forall wf_msg ms.
Proof. rewrite forallb_Forall. apply Forall_impl, wf_msgb_wf. Qed.

(** The witness: private dummy (0xFF, 10 octets) + Transfer Length (0x01, 8
    octets), the two items the implementation itself puts on a START segment
    when enable_test contains private_extensions. *)
Theorem scapy_exts_refuted :
  exists items : list extitem,
    Forall (wf_ext xfer_ext_len) items
    /\ scapy_view xfer_ext_len (encode_exts items) <> map item_view items.
Proof.
  exists [mkExt 1 255 [0;0;0;0;0;0;0;0;0;0]; mkExt 0 1 [0;0;0;0;0;0;0;2]]. split.
  - apply wf_exts_forallb. reflexivity.
  - vm_compute. discriminate.
Qed.

(** One message of every type, for the non-vacuity examples of Props/C07.v:
    SESS_INIT with a node id and the private session extension item, a START
    segment carrying the Transfer Length item, a zero-length END segment, a
    zero-length START|END segment, and the five fixed-size messages. *)
Definition example_msgs : list msg :=
  [ MSessInit 30 65536 1048576 [100;116;110;58;47;47;97;47] (encode_exts [mkExt 1 255 [0;0;0;0;0;0;0;1;0;2]]);
    MXferSeg 2 1 (encode_exts [mkExt 1 1 [0;0;0;0;0;0;0;3]]) [1;2;3];
    MXferSeg 1 1 [] [];
    MXferSeg 3 2 [] [];
    MXferAck 1 1 3;
    MXferRefuse 2 5;
    MKeepalive;
    MReject 9 1;
    MSessTerm 1 3 ].
