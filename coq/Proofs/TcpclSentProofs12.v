(** TCPCL endpoint model: C09, the queue of transfers -- a queued transfer is
    never silently dropped (its id stays in the transmit map or a
    SigSendFinished was emitted for it); once terminating the queue of unstarted
    transfers never grows; a close reports what it still holds. *)
From Coq Require Import NArith List PeanoNat.
From RecordUpdate Require Import RecordSet.
From DTN Require Import Model.TcpclSess Proofs.TcpclSessBasics
  Proofs.TcpclSentProofs2 Proofs.TcpclSentProofs5 Proofs.TcpclSentProofs7 Proofs.TcpclSessSpec.
Import ListNotations RecordSetNotations.
Local Open Scope N_scope.

Lemma keys_dict_set_in {V} k (v : V) d id : id = k \/ In id (map fst d) -> In id (map fst (dict_set k v d)).
Proof.
  rewrite keys_dict_set. intros [->|H]; destruct (mem_N k (map fst d)) eqn:E; rewrite ?in_app_iff; cbn [In]; auto.
  apply mem_N_In, E.
Qed.

Lemma keys_dict_del_ne {V} k (d : list (N * V)) id : k <> id -> In id (map fst d) -> In id (map fst (dict_del k d)).
Proof.
  intros Hne. induction d as [|[k' v'] d IH]; cbn [map fst dict_del In]; [contradiction|].
  destruct (N.eqb_spec k' k) as [e|e]; cbn [map fst In]; intros [H|H];
    first [subst; contradiction | exact H | left; exact H | right; apply IH; exact H].
Qed.

Definition fin (id : N) (t : list event) : Prop := exists args, In (ESig SigSendFinished (PStrNum id :: args)) t.

Lemma fin_app_l id t1 t2 : fin id t1 -> fin id (t1 ++ t2).
Proof. intros [a H]. exists a. apply in_app_iff. left. exact H. Qed.

Lemma fin_app_r id t1 t2 : fin id t2 -> fin id (t1 ++ t2).
Proof. intros [a H]. exists a. apply in_app_iff. right. exact H. Qed.

Lemma fin_sfin id len res : fin id [ev_sfin id len res].
Proof. eexists. left. reflexivity. Qed.

Lemma fin_flushed its id : In id (map fst its) -> fin id (map TcpclXferSpec.term_ev its).
Proof.
  intros H. apply in_map_iff in H. destruct H as (it&<-&Hin). eexists. apply in_map_iff. exists it.
  split; [reflexivity|exact Hin].
Qed.

(** The transmit map after an update, read off the term: a key is still there
    unless [F] accounts for it. *)
Lemma keys_or_set {V} k (v : V) d id (F : Prop) :
  (In id (map fst d) \/ F) -> In id (map fst (dict_set k v d)) \/ F.
Proof. intros [H|H]; [left; apply keys_dict_set_in; right; exact H|right; exact H]. Qed.

Lemma keys_or_del {V} k (d : list (N * V)) id (F : Prop) :
  (k = id -> F) -> (In id (map fst d) \/ F) -> In id (map fst (dict_del k d)) \/ F.
Proof.
  intros Hk [H|H]; [|right; exact H]. destruct (N.eq_dec k id) as [e|e]; [right; apply Hk, e|].
  left. apply keys_dict_del_ne; assumption.
Qed.

Lemma keys_or_del_all its id (F : Prop) : (In id (map fst its) -> F) ->
  forall d : list (N * N), (In id (map fst d) \/ F) -> In id (map fst (del_all its d)) \/ F.
Proof.
  induction its as [|it its IH]; intros Hk d H; [exact H|]. cbn [del_all fold_left].
  apply IH; [intros Hi; apply Hk; right; exact Hi|].
  apply keys_or_del; [intros <-; apply Hk; left; reflexivity|exact H].
Qed.

(** Every transfer id returned by send_bundle_data is still in the transmit
    map, or a SigSendFinished signal was emitted for it. *)
Definition Qd (s : ep) : Prop :=
  forall id, In (ERet 1 (PStrNum id)) (trace s) -> In id (map fst (tx_map s)) \/ fin id (trace s).

(** What any part of an operation does to the trace and the transmit map:
    events are appended; an id returned is in the map; an id that leaves the
    map has its SigSendFinished among the new events. *)
Definition Kept (s s' : ep) : Prop :=
  exists evs, trace s' = trace s ++ evs
    /\ Forall (fun e => forall id, e = ERet 1 (PStrNum id) -> In id (map fst (tx_map s'))) evs
    /\ forall id, In id (map fst (tx_map s)) -> In id (map fst (tx_map s')) \/ fin id evs.

Lemma Qd_Kept s s' : Kept s s' -> Qd s -> Qd s'.
Proof.
  intros (evs&Et&Hr&Hk) H id Hin. rewrite Et in *. apply in_app_iff in Hin. destruct Hin as [Hin|Hin].
  - destruct (H id Hin) as [H1|H1]; [|right; apply fin_app_l, H1].
    destruct (Hk id H1) as [H2|H2]; [left; exact H2|right; apply fin_app_r, H2].
  - left. rewrite Forall_forall in Hr. exact (Hr _ Hin id eq_refl).
Qed.

(** Goal [Kept s s'] with [s'] a chain of updates of [s]: compute the two
    fields, decide the conditions they depend on, and read the three parts off
    the resulting terms. *)
Ltac kept_leaf :=
  unfold Kept; ep_cbn;
  repeat match goal with |- context [if ?c then _ else _] => destruct c end;
  (eexists; split; [first [rewrite <- ?app_assoc; reflexivity | symmetry; apply app_nil_r]|split];
   [ repeat first [apply Forall_nil | apply Forall_app; split | apply Forall_cons | apply Forall_map, Forall_forall; intros ? _];
     intros ? E; first [discriminate E | injection E as <-; apply keys_dict_set_in; left; reflexivity]
   | let id := fresh "id" in let Hin := fresh "Hin" in
     intros id Hin;
     repeat first [ apply keys_or_set
                  | apply keys_or_del; [intros <-; auto 6 using fin_app_l, fin_app_r, fin_sfin|]
                  | apply keys_or_del_all; [auto 6 using fin_app_l, fin_app_r, fin_flushed|] ];
     left; exact Hin ]).

Lemma Kept_recv_frame fr s : Kept s (fst (recv_frame fr s)).
Proof. frame_cases fr s; kept_leaf. Qed.

Lemma Kept_step_o o s : closed s = false -> not_rx o = true -> Kept s (step s o).
Proof.
  intros Hc Ho. destruct (step_spec s o Hc); try discriminate Ho; spec_cases; kept_leaf.
Qed.

Lemma Qd_keeps : keeps Qd Qd.
Proof.
  constructor; try (intros; assumption).
  - intros s o _ H Hc Ho. exact (Qd_Kept _ _ (Kept_step_o o s Hc Ho) H).
  - intros s fr rest _ H _ _. apply (Qd_Kept _ _ (Kept_recv_frame fr _)). exact H.
  - intros s k. apply Qd_Kept. unfold emit. kept_leaf.
Qed.

(** C09: after any run, every transfer that was queued (its id was returned by
    send_bundle_data) is still queued / in progress / awaiting its final
    acknowledgement, or was reported finished -- never silently dropped. *)
Theorem queued_never_dropped c ops : let s := run c ops in
  forall id, In (ERet 1 (PStrNum id)) (trace s) ->
    In id (map fst (tx_map s)) \/ exists args, In (ESig SigSendFinished (PStrNum id :: args)) (trace s).
Proof.
  cbv zeta. apply (keeps_run Qd c Qd_keeps). intros id H. cbn in H. contradiction.
Qed.

Lemma pend_len_recv_frame f s : (length (pend_start (fst (recv_frame f s))) <= length (pend_start s))%nat.
Proof.
  destruct (pend_start_recv_frame_cases f s) as [E|[E|[k E]]]; rewrite E;
    [apply le_n|apply Nat.le_0_l|apply dict_del_length].
Qed.

Lemma in_term_recv_frame_mono f s : in_term s = true -> in_term (fst (recv_frame f s)) = true.
Proof.
  intros H. destruct f as [c|m]; [rewrite in_term_recv_contact; exact H|].
  rewrite in_term_recv_msg, H. reflexivity.
Qed.

Lemma pend_len_step_o o s : in_term s = true -> closed s = false -> not_rx o = true ->
  in_term (step s o) = true /\ (length (pend_start (step s o)) <= length (pend_start s))%nat.
Proof.
  intros Ht Hc Ho. split; [rewrite (in_term_step_o o s Hc Ho), Ht; reflexivity|].
  destruct (pend_start_step_o_cases o s Ho) as [E|[E|[[it E]|(d&_&Hf&_)]]].
  - rewrite E. apply le_n.
  - rewrite E. apply Nat.le_0_l.
  - rewrite E. apply Nat.le_succ_diag_r.
  - congruence.
Qed.

(** Once the endpoint is terminating, no operation makes the queue of
    unstarted transfers longer. *)
Theorem pend_start_never_grows_when_terminating s o : in_term s = true ->
  (length (pend_start (step s o)) <= length (pend_start s))%nat.
Proof.
  intros Ht.
  apply (step_inv_at (fun s' => in_term s' = true /\ (length (pend_start s') <= length (pend_start s))%nat) s o);
    try (intros s1 **; assumption).
  - intros _ Hc Ho. apply pend_len_step_o; assumption.
  - intros s1 fr rest [H1 H2] _ _. split; [apply in_term_recv_frame_mono; exact H1|].
    eapply Nat.le_trans; [apply pend_len_recv_frame|exact H2].
  - split; [exact Ht|apply le_n].
Qed.

(** One close that takes effect: the queue of unstarted transfers is emptied,
    their ids leave the transmit map, and each gets SigSendFinished
    [id; 0; "session terminating"] before the socket-closed event. *)
Theorem close_reports_unstarted s : closed s = false ->
  pend_start (do_close s) = []
  /\ tx_map (do_close s) = fold_left (fun m it => dict_del (fst it) m) (pend_start s) (tx_map s)
  /\ trace (do_close s)
     = trace s ++ map (fun it => ESig SigSendFinished [PStrNum (fst it); PInt 0; PStr RES_TERMINATING]) (pend_start s)
               ++ [EClosed]
  /\ closed (do_close s) = true.
Proof.
  intros Hc. rewrite do_close_pr. ep_cbn. rewrite Hc, <- app_assoc. repeat split; reflexivity.
Qed.

(** The close decided by [check_sess_term] finds the queue empty. *)
Lemma closed_pend_recv_frame f s : closed s = false ->
  closed (fst (recv_frame f s)) = true -> pend_start (fst (recv_frame f s)) = [].
Proof.
  intros Hc. destruct f as [c|m]; [destruct (recv_contact_spec c s); ep_cbn; rewrite Hc; congruence|].
  rewrite recv_msg_pr. destruct (handle_msg_spec m s); spec_cases; ep_cbn; rewrite ?Hc;
    try (reflexivity || congruence);
    (match goal with |- (if ?c then _ else _) = _ -> _ => destruct c eqn:E end;
     [intros _; exact (cst6_pend _ _ _ _ _ _ _ E)|congruence]).
Qed.

Lemma closed_pend_step_o o s : closed s = false -> not_rx o = true ->
  closed (step s o) = true -> pend_start (step s o) = [].
Proof.
  intros Hc Ho. destruct (step_spec s o Hc); try discriminate Ho; spec_cases; ep_cbn; rewrite Hc; congruence.
Qed.

Definition closed_queue_empty (s : ep) : Prop := closed s = true -> pend_start s = [].

Lemma closed_queue_empty_keeps : keeps closed_queue_empty closed_queue_empty.
Proof.
  constructor; try (intros; assumption).
  - intros s o _ _ Hc Ho. unfold closed_queue_empty. apply closed_pend_step_o; assumption.
  - intros s fr rest _ _ Hc _. unfold closed_queue_empty. apply closed_pend_recv_frame. ep_cbn. exact Hc.
Qed.

(** In every reachable closed state no transfer is left queued-but-unstarted,
    and every transfer id ever returned by send_bundle_data has a
    SigSendFinished in the trace or is still in the transmit map (its first
    segment was sent: it is not in the queue of unstarted transfers, which is
    empty). *)
Theorem closed_nothing_unstarted_unreported c ops : let s := run c ops in
  closed s = true ->
  pend_start s = []
  /\ forall id, In (ERet 1 (PStrNum id)) (trace s) ->
       (exists args, In (ESig SigSendFinished (PStrNum id :: args)) (trace s))
       \/ (In id (map fst (tx_map s)) /\ ~ In id (map fst (pend_start s))).
Proof.
  cbv zeta. intros Hc.
  assert (Hz : pend_start (run c ops) = []).
  { apply (keeps_run closed_queue_empty c closed_queue_empty_keeps); [intros H; discriminate H|exact Hc]. }
  split; [exact Hz|]. intros id Hin. destruct (queued_never_dropped c ops id Hin) as [H|H]; [right|left; exact H].
  split; [exact H|]. rewrite Hz. intros [].
Qed.
