(** The receive tables of the models (Udpcl [lookup/set_key/del_key], Btpu
    [plookup/pset/pdel]) are the same three recursions over an association
    list, each written out in its model.  What a lookup sees after an
    assignment or a deletion is proved here once, from the defining equations,
    which hold of each model's functions by [reflexivity]
    ([UdpclProofs.lookup_update], [BtpuRecvProofs.plookup_update]). *)
From Coq Require Import List Bool.
Import ListNotations.

Section AssocUpdate.
  Variables (K V : Type) (eqb : K -> K -> bool).
  Hypothesis eqb_eq : forall a b, eqb a b = true <-> a = b.
  Variable get : K -> list (K * V) -> option V.
  Variable set : K -> V -> list (K * V) -> list (K * V).
  Variable del : K -> list (K * V) -> list (K * V).
  Hypothesis get_nil : forall k, get k [] = None.
  Hypothesis get_cons : forall k k' v r, get k ((k', v) :: r) = if eqb k k' then Some v else get k r.
  Hypothesis set_nil : forall k v, set k v [] = [(k, v)].
  Hypothesis set_cons : forall k v k' v' r,
    set k v ((k', v') :: r) = if eqb k k' then (k, v) :: r else (k', v') :: set k v r.
  Hypothesis del_nil : forall k, del k [] = [].
  Hypothesis del_cons : forall k k' v' r,
    del k ((k', v') :: r) = if eqb k k' then del k r else (k', v') :: del k r.

  Lemma get_update k o l k' :
    get k' (match o with Some v => set k v l | None => del k l end) = if eqb k' k then o else get k' l.
  Proof.
    induction l as [|[k2 v2] r IH]; destruct o as [v|]; cbn beta iota in *.
    1,2: rewrite ?set_nil, ?del_nil, ?get_cons, get_nil; destruct (eqb k' k); reflexivity.
    (* cases on the three key tests; those [reflexivity] leaves contradict one another *)
    all: rewrite ?set_cons, ?del_cons; destruct (eqb k k2) eqn:E2; rewrite ?get_cons, ?IH;
      destruct (eqb k' k) eqn:E1, (eqb k' k2) eqn:E3; try reflexivity;
      apply eqb_eq in E1 || apply eqb_eq in E2; subst; congruence.
  Qed.
End AssocUpdate.
