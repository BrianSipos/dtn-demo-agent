(** Proofs for property C08 (block CRCs) over [Model/Bundle.v] and [Model/BundleCrc.v].
    Both block kinds encode as an array whose last item is the CRC byte string, and
    [with_crc_*] and [crc_ok_*] differ only in the items in front of it.  So each fact
    is stated once, for a list of head items and a CRC type [ct] of width
    [crc_width ct] ([gen_ok], [gen_detect], [gen_valid_octets], [gen_zeroed]), and
    [Lib/CrcProofs.v] enters through [crc_field_burst] and [crc_spec_field_eq]; the
    theorems about blocks, primary blocks and the widths 16/32 are instances.  The
    receive-side theorems assume that the corrupted octets re-encode canonically;
    the [*_refuted] witnesses show what the implementation's lax reading lets
    through without that. *)
From Coq Require Import List NArith Bool PeanoNat Lia.
From DTN Require Import Lib.Bytes Lib.Cbor Lib.Crc Lib.CrcProofs.
From DTN Require Import Model.Bundle Proofs.BundleProofs Model.BundleCrc.
From DTN Require Model.BpAgent Gen.CrcTable.
Import ListNotations.
Local Open Scope N_scope.

Lemma crc_field_some ct x : ct = 1 \/ ct = 2 -> exists v, crc_field ct x = Some v /\ length v = crc_width ct.
Proof. intros [-> | ->]; eexists; (split; [reflexivity|apply be_length]). Qed.

Lemma crc_field_burst ct m m' :
  ct = 1 \/ ct = 2 -> burst_apart (8 * crc_width ct) m m' -> crc_field ct m <> crc_field ct m'.
Proof.
  intros [-> | ->] B E; [apply (crc16_x25_field_burst m m' B) | apply (crc32c_field_burst m m' B)];
    cbv [crc_field N.eqb Pos.eqb] in E; congruence.
Qed.

Lemma crc_spec_field_eq ct bs : crc_field ct bs = crc_spec_field ct bs.
Proof.
  unfold crc_field, crc_spec_field, crc16_x25_field, crc32c_field. rewrite crc16_x25_spec, crc32c_spec. reflexivity.
Qed.

Lemma crc_valid_octets_intro ct bs :
  (ct = 1 \/ ct = 2 -> exists pre v, bs = pre ++ v /\ Some v = crc_spec_field ct (pre ++ repeat 0 (crc_width ct))) ->
  crc_valid_octets ct bs.
Proof. intros H. split; intros ->; destruct H as (pre & v & -> & E); auto; exists pre; injection E as ->; reflexivity. Qed.

Lemma opt_bytes_eqb_eq a b : opt_bytes_eqb a b = true <-> a = b.
Proof.
  destruct a, b; cbn [opt_bytes_eqb]; try (split; [discriminate|congruence]); [|tauto].
  rewrite bytes_eqb_eq. split; congruence.
Qed.

Lemma encode_arr_bstr_last its v :
  encode (CArr (its ++ [CBstr v])) = arr_pre its (length v) ++ v.
Proof.
  unfold arr_pre. rewrite encode_CArr, app_length, encode_seq_app. cbn [length].
  rewrite Nat.add_1_r. unfold encode_seq at 2. cbn [map concat encode].
  rewrite app_nil_r, <- !app_assoc. reflexivity.
Qed.

(** the message the CRC is computed over: zeros in place of the value *)
Lemma encode_zeroed its ct :
  ct = 1 \/ ct = 2 ->
  encode (CArr (its ++ crc_items (crc_zero ct))) = arr_pre its (crc_width ct) ++ repeat 0 (crc_width ct).
Proof.
  intros [-> | ->]; [exact (encode_arr_bstr_last its [0; 0]) | exact (encode_arr_bstr_last its [0; 0; 0; 0])].
Qed.

(** the message with a computed CRC: the same octets in front of the value *)
Lemma encode_stored its ct x :
  ct = 1 \/ ct = 2 ->
  exists v, crc_field ct x = Some v /\ length v = crc_width ct /\
            encode (CArr (its ++ crc_items (crc_field ct x))) = arr_pre its (crc_width ct) ++ v.
Proof.
  intros H. destruct (crc_field_some ct x H) as (v & E & L). exists v. rewrite E. cbn [crc_items].
  rewrite encode_arr_bstr_last, L. auto.
Qed.

(** The check as a function of the items in front of the CRC item, the CRC type
    and the stored CRC.  The prefix [gen_] of this and of the lemmas about it
    stands for "generic in the block kind"; only in [gen_table_*], at the end,
    it stands for the generated table [Gen/CrcTable.v]. *)
Definition gen_ok (its : list cbor) (ct : N) (c : option bytes) : bool :=
  opt_bytes_eqb c (crc_field ct (encode (CArr (its ++ crc_items (crc_zero ct))))).

Lemma crc_ok_block_gen b : crc_ok_block b = gen_ok (cblock_head_items b) (bcrc_type b) (bcrc b).
Proof. destruct b. reflexivity. Qed.

Lemma crc_ok_primary_gen p : crc_ok_primary p = gen_ok (primary_head_items p) (crc_type p) (crc p).
Proof. destruct p. reflexivity. Qed.

Lemma encode_primary_gen p : encode_primary p = encode (CArr (primary_head_items p ++ crc_items (crc p))).
Proof. unfold encode_primary, primary_items, primary_head_items. rewrite <- app_assoc. reflexivity. Qed.

(** [with_crc_*] and [zero_*] are [set_*] of a CRC value: the encodings they lead to *)
Lemma encode_set_crc p c : encode_primary (set_crc p c) = encode (CArr (primary_head_items p ++ crc_items c)).
Proof. exact (encode_primary_gen (set_crc p c)). Qed.

Lemma encode_set_bcrc b c : encode_cblock (set_bcrc b c) = encode (CArr (cblock_head_items b ++ crc_items c)).
Proof. reflexivity. Qed.

Lemma gen_ok_self its ct : gen_ok its ct (crc_field ct (encode (CArr (its ++ crc_items (crc_zero ct))))) = true.
Proof. apply opt_bytes_eqb_eq. reflexivity. Qed.

Lemma gen_ok_inv its ct c :
  ct = 1 \/ ct = 2 -> gen_ok its ct c = true ->
  c = crc_field ct (arr_pre its (crc_width ct) ++ repeat 0 (crc_width ct)).
Proof. intros H. unfold gen_ok. rewrite (encode_zeroed its ct H). apply opt_bytes_eqb_eq. Qed.

Lemma gen_ok_split its ct c pre v :
  ct = 1 \/ ct = 2 ->
  gen_ok its ct c = true -> encode (CArr (its ++ crc_items c)) = pre ++ v -> length v = crc_width ct ->
  pre = arr_pre its (crc_width ct) /\ Some v = crc_field ct (pre ++ repeat 0 (crc_width ct)).
Proof.
  intros Hct H E L. apply (gen_ok_inv its ct c Hct) in H. subst c.
  destruct (encode_stored its ct (arr_pre its (crc_width ct) ++ repeat 0 (crc_width ct)) Hct) as (w & Ew & Lw & Enc).
  rewrite Enc in E. apply app_inj_len_tail in E as [<- <-]; [|lia]. auto.
Qed.

(** [pre ++ v]: a block with a valid CRC, [v] = the CRC value octets.
    [pre' ++ v']: the corrupted octets; [its'], [c'] the block they re-encode
    from.  Either the value is intact and [pre] suffered a short burst, or
    [pre] is intact and the value changed. *)
Lemma gen_detect its ct c its' c' pre v pre' v' :
  ct = 1 \/ ct = 2 ->
  gen_ok its ct c = true -> encode (CArr (its ++ crc_items c)) = pre ++ v -> length v = crc_width ct ->
  encode (CArr (its' ++ crc_items c')) = pre' ++ v' -> length v' = crc_width ct ->
  (v' = v /\ burst_apart (8 * crc_width ct) pre pre') \/ (pre' = pre /\ v' <> v) ->
  gen_ok its' ct c' = false.
Proof.
  intros Hct H E L E' L' Hc. destruct (gen_ok its' ct c') eqn:H'; [exfalso|reflexivity].
  destruct (gen_ok_split _ _ _ _ _ Hct H E L) as [_ Hv].
  destruct (gen_ok_split _ _ _ _ _ Hct H' E' L') as [_ Hv'].
  destruct Hc as [[-> Hb]|[-> Hne]].
  - apply (crc_field_burst ct (pre ++ repeat 0 (crc_width ct)) (pre' ++ repeat 0 (crc_width ct)) Hct);
      [apply burst_apart_app_r, Hb | congruence].
  - apply Hne. congruence.
Qed.

(** the two kinds of corruption, with the hypotheses in the form the theorems
    about blocks state them *)
Lemma gen_detect_burst its ct c its' c' pre pre' v :
  gen_ok its ct c = true ->
  encode (CArr (its ++ crc_items c)) = pre ++ v -> encode (CArr (its' ++ crc_items c')) = pre' ++ v ->
  (ct = 1 /\ length v = 2%nat /\ burst_apart 16 pre pre') \/
  (ct = 2 /\ length v = 4%nat /\ burst_apart 32 pre pre') ->
  gen_ok its' ct c' = false.
Proof.
  intros H E E' [(-> & L & B)|(-> & L & B)]; apply (gen_detect its _ c its' c' pre v pre' v); auto.
Qed.

Lemma gen_detect_field its ct c its' c' pre v v' :
  gen_ok its ct c = true ->
  encode (CArr (its ++ crc_items c)) = pre ++ v -> encode (CArr (its' ++ crc_items c')) = pre ++ v' ->
  length v' = length v -> v' <> v ->
  (ct = 1 /\ length v = 2%nat) \/ (ct = 2 /\ length v = 4%nat) ->
  gen_ok its' ct c' = false.
Proof.
  intros H E E' LL Hne [(-> & L)|(-> & L)]; apply (gen_detect its _ c its' c' pre v pre v'); auto;
    now rewrite LL.
Qed.

(** [gen_ok_inv], [gen_ok_split] and [gen_detect] at each of the two CRC types *)
Lemma gen_ok_16_inv its c : gen_ok its 1 c = true ->
  c = Some (crc16_x25_field (arr_pre its 2 ++ [0; 0])).
Proof. exact (gen_ok_inv its 1 c (or_introl eq_refl)). Qed.

Lemma gen_ok_32_inv its c : gen_ok its 2 c = true ->
  c = Some (crc32c_field (arr_pre its 4 ++ [0; 0; 0; 0])).
Proof. exact (gen_ok_inv its 2 c (or_intror eq_refl)). Qed.

Lemma gen_ok_16_split its c pre v :
  gen_ok its 1 c = true -> encode (CArr (its ++ crc_items c)) = pre ++ v -> length v = 2%nat ->
  pre = arr_pre its 2 /\ v = crc16_x25_field (pre ++ [0; 0]).
Proof.
  intros H E L. destruct (gen_ok_split its 1 c pre v (or_introl eq_refl) H E L) as [Hp Hv].
  injection Hv as Hv. auto.
Qed.

Lemma gen_ok_32_split its c pre v :
  gen_ok its 2 c = true -> encode (CArr (its ++ crc_items c)) = pre ++ v -> length v = 4%nat ->
  pre = arr_pre its 4 /\ v = crc32c_field (pre ++ [0; 0; 0; 0]).
Proof.
  intros H E L. destruct (gen_ok_split its 2 c pre v (or_intror eq_refl) H E L) as [Hp Hv].
  injection Hv as Hv. auto.
Qed.

Lemma gen_detect_16 its c its' c' pre v pre' v' :
  gen_ok its 1 c = true -> encode (CArr (its ++ crc_items c)) = pre ++ v -> length v = 2%nat ->
  encode (CArr (its' ++ crc_items c')) = pre' ++ v' -> length v' = 2%nat ->
  (v' = v /\ burst_apart 16 pre pre') \/ (pre' = pre /\ v' <> v) ->
  gen_ok its' 1 c' = false.
Proof. exact (gen_detect its 1 c its' c' pre v pre' v' (or_introl eq_refl)). Qed.

Lemma gen_detect_32 its c its' c' pre v pre' v' :
  gen_ok its 2 c = true -> encode (CArr (its ++ crc_items c)) = pre ++ v -> length v = 4%nat ->
  encode (CArr (its' ++ crc_items c')) = pre' ++ v' -> length v' = 4%nat ->
  (v' = v /\ burst_apart 32 pre pre') \/ (pre' = pre /\ v' <> v) ->
  gen_ok its' 2 c' = false.
Proof. exact (gen_detect its 2 c its' c' pre v pre' v' (or_intror eq_refl)). Qed.

Theorem detect_burst_block (b b' : cblock) (pre pre' v : bytes) :
  crc_ok_block b = true ->
  encode_cblock b = pre ++ v ->
  encode_cblock b' = pre' ++ v ->
  bcrc_type b' = bcrc_type b ->
  (bcrc_type b = 1 /\ length v = 2%nat /\ burst_apart 16 pre pre') \/
  (bcrc_type b = 2 /\ length v = 4%nat /\ burst_apart 32 pre pre') ->
  crc_ok_block b' = false.
Proof. rewrite !crc_ok_block_gen. intros H E E' ->. exact (gen_detect_burst _ _ _ _ _ _ _ _ H E E'). Qed.

Theorem detect_field_block (b b' : cblock) (pre v v' : bytes) :
  crc_ok_block b = true ->
  encode_cblock b = pre ++ v ->
  encode_cblock b' = pre ++ v' ->
  bcrc_type b' = bcrc_type b ->
  length v' = length v -> v' <> v ->
  (bcrc_type b = 1 /\ length v = 2%nat) \/ (bcrc_type b = 2 /\ length v = 4%nat) ->
  crc_ok_block b' = false.
Proof. rewrite !crc_ok_block_gen. intros H E E' ->. exact (gen_detect_field _ _ _ _ _ _ _ _ H E E'). Qed.

(** the same when the corrupted octets are read by the strict decoder: the
    re-encoding hypothesis is then automatic *)
Lemma strict_block_reencode bs c b :
  decode_one_strict bs = Some c -> cblock_of_cbor c = Some b -> encode_cblock b = bs.
Proof.
  intros D C. apply decode_one_strict_inv in D. apply cblock_of_cbor_inv in C.
  unfold encode_cblock. rewrite C. exact D.
Qed.

Corollary detect_burst_block_decoded (b b' : cblock) (pre pre' v : bytes) (c : cbor) :
  crc_ok_block b = true ->
  encode_cblock b = pre ++ v ->
  decode_one_strict (pre' ++ v) = Some c -> cblock_of_cbor c = Some b' ->
  bcrc_type b' = bcrc_type b ->
  (bcrc_type b = 1 /\ length v = 2%nat /\ burst_apart 16 pre pre') \/
  (bcrc_type b = 2 /\ length v = 4%nat /\ burst_apart 32 pre pre') ->
  crc_ok_block b' = false.
Proof.
  intros H E D C. apply (detect_burst_block b b' pre pre' v H E).
  eapply strict_block_reencode; eauto.
Qed.

Theorem detect_burst_primary (p p' : primary) (pre pre' v : bytes) :
  crc_ok_primary p = true ->
  encode_primary p = pre ++ v ->
  encode_primary p' = pre' ++ v ->
  crc_type p' = crc_type p ->
  (crc_type p = 1 /\ length v = 2%nat /\ burst_apart 16 pre pre') \/
  (crc_type p = 2 /\ length v = 4%nat /\ burst_apart 32 pre pre') ->
  crc_ok_primary p' = false.
Proof.
  rewrite !crc_ok_primary_gen, !encode_primary_gen. intros H E E' ->. exact (gen_detect_burst _ _ _ _ _ _ _ _ H E E').
Qed.

Theorem detect_field_primary (p p' : primary) (pre v v' : bytes) :
  crc_ok_primary p = true ->
  encode_primary p = pre ++ v ->
  encode_primary p' = pre ++ v' ->
  crc_type p' = crc_type p ->
  length v' = length v -> v' <> v ->
  (crc_type p = 1 /\ length v = 2%nat) \/ (crc_type p = 2 /\ length v = 4%nat) ->
  crc_ok_primary p' = false.
Proof.
  rewrite !crc_ok_primary_gen, !encode_primary_gen. intros H E E' ->. exact (gen_detect_field _ _ _ _ _ _ _ _ H E E').
Qed.

Lemma gen_valid_octets its ct :
  crc_valid_octets ct (encode (CArr (its ++ crc_items (crc_field ct (encode (CArr (its ++ crc_items (crc_zero ct)))))))).
Proof.
  apply crc_valid_octets_intro. intros Hct. rewrite (encode_zeroed its ct Hct).
  destruct (encode_stored its ct (arr_pre its (crc_width ct) ++ repeat 0 (crc_width ct)) Hct) as (v & Ev & _ & ->).
  exists (arr_pre its (crc_width ct)), v. rewrite <- crc_spec_field_eq. auto.
Qed.

Theorem tx_valid_block (b : cblock) : crc_valid_octets (bcrc_type b) (encode_cblock (with_crc_block b)).
Proof. unfold with_crc_block. rewrite !encode_set_bcrc. apply gen_valid_octets. Qed.

Theorem tx_valid_primary (p : primary) : crc_valid_octets (crc_type p) (encode_primary (with_crc_primary p)).
Proof. unfold with_crc_primary. rewrite !encode_set_crc. apply gen_valid_octets. Qed.

Theorem tx_valid_bundle (b : bundle) :
  encode_bundle (with_crc_bundle b) =
    159 :: encode_primary (with_crc_primary (prim b))
        ++ concat (map (fun blk => encode_cblock (with_crc_block blk)) (blocks b)) ++ [255]
  /\ crc_valid_octets (crc_type (prim b)) (encode_primary (with_crc_primary (prim b)))
  /\ Forall (fun blk => crc_valid_octets (bcrc_type blk) (encode_cblock (with_crc_block blk))) (blocks b).
Proof.
  split; [|split].
  - unfold encode_bundle, encode_indef_arr, bundle_items, with_crc_bundle. cbn [prim blocks].
    rewrite encode_seq_cons. unfold encode_seq. rewrite !map_map, <- app_assoc. reflexivity.
  - apply tx_valid_primary.
  - apply Forall_forall. intros blk _. apply tx_valid_block.
Qed.

(** the zeroed message is the encoding of the block with a zero CRC field *)
Lemma gen_zeroed its ct pre v :
  ct = 1 \/ ct = 2 ->
  encode (CArr (its ++ crc_items (crc_field ct (encode (CArr (its ++ crc_items (crc_zero ct))))))) = pre ++ v ->
  length v = crc_width ct ->
  encode (CArr (its ++ crc_items (crc_zero ct))) = pre ++ repeat 0 (crc_width ct).
Proof.
  intros Hct E L. rewrite (encode_zeroed its ct Hct).
  destruct (gen_ok_split its ct _ pre v Hct (gen_ok_self its ct) E L) as [-> _]. reflexivity.
Qed.

Theorem tx_zeroed_block (b : cblock) (pre v : bytes) :
  bcrc_type b = 1 \/ bcrc_type b = 2 ->
  encode_cblock (with_crc_block b) = pre ++ v -> length v = crc_width (bcrc_type b) ->
  encode_cblock (zero_block b) = pre ++ repeat 0 (crc_width (bcrc_type b)).
Proof. unfold with_crc_block, zero_block. rewrite !encode_set_bcrc. apply gen_zeroed. Qed.

Theorem tx_zeroed_primary (p : primary) (pre v : bytes) :
  crc_type p = 1 \/ crc_type p = 2 ->
  encode_primary (with_crc_primary p) = pre ++ v -> length v = crc_width (crc_type p) ->
  encode_primary (zero_primary p) = pre ++ repeat 0 (crc_width (crc_type p)).
Proof. unfold with_crc_primary, zero_primary. rewrite !encode_set_crc. apply gen_zeroed. Qed.

Theorem type0_block (b : cblock) : bcrc_type b = 0 ->
  bcrc (with_crc_block b) = None
  /\ length (cblock_items (with_crc_block b)) = 5%nat
  /\ hd_error (encode_cblock (with_crc_block b)) = Some 133.
Proof. destruct b as [t n f ct d c]. cbn [bcrc_type]. intros ->. repeat split. Qed.

Theorem type0_primary (p : primary) : crc_type p = 0 ->
  crc (with_crc_primary p) = None
  /\ length (primary_items (with_crc_primary p)) = match frag p with Some _ => 10%nat | None => 8%nat end.
Proof. destruct p as [v f ct d s r t q lt fr c]. cbn [crc_type frag]. intros ->. split; [reflexivity|]. destruct fr as [[o tt]|]; reflexivity. Qed.

Theorem typeN_block (b : cblock) : bcrc_type b = 1 \/ bcrc_type b = 2 ->
  length (cblock_items (with_crc_block b)) = 6%nat
  /\ exists v, bcrc (with_crc_block b) = Some v /\ length v = crc_width (bcrc_type b).
Proof.
  destruct b as [t n f ct d c]. cbn [bcrc_type].
  intros [-> | ->]; (split; [reflexivity|]); eexists; (split; [reflexivity|apply be_length]).
Qed.

Theorem check_accepts_block (b : cblock) : crc_ok_block (with_crc_block b) = true.
Proof. rewrite crc_ok_block_gen. exact (gen_ok_self (cblock_head_items b) (bcrc_type b)). Qed.

Theorem check_accepts_primary (p : primary) : crc_ok_primary (with_crc_primary p) = true.
Proof. rewrite crc_ok_primary_gen. exact (gen_ok_self (primary_head_items p) (crc_type p)). Qed.

Theorem check_accepts_bundle (b : bundle) : crc_ok_bundle (with_crc_bundle b) = true.
Proof.
  unfold crc_ok_bundle, with_crc_bundle. cbn [prim blocks]. rewrite check_accepts_primary. cbn [andb].
  rewrite forallb_forall. intros x Hx. apply in_map_iff in Hx. destruct Hx as (y & <- & _).
  apply check_accepts_block.
Qed.

(** [ab]: the agent model's view of the received bundle [bu].  [b_crc_ok] is an
    input of the agent model; the first hypothesis says that it is the codec
    model's [crc_ok_bundle], and no theorem relates the two models otherwise. *)
Theorem gate_first (matches : N -> BpAgent.eid -> bool) (a : BpAgent.agent) (ab : BpAgent.bundle) (bu : bundle) :
  BpAgent.b_crc_ok ab = crc_ok_bundle bu ->
  crc_ok_primary (prim bu) = false \/ (exists blk, In blk (blocks bu) /\ crc_ok_block blk = false) ->
  BpAgent.recv matches a ab = (a, [(ab, [])]).
Proof.
  intros Hv Hbad. unfold BpAgent.recv, BpAgent.recv_core, BpAgent.accepted.
  replace (BpAgent.b_crc_ok ab) with false; [reflexivity|].
  rewrite Hv. unfold crc_ok_bundle. destruct Hbad as [->|(blk & Hin & Hb)]; [reflexivity|].
  symmetry. apply andb_false_iff. right. apply not_true_is_false. intros E.
  rewrite forallb_forall in E. now rewrite (E blk Hin) in Hb.
Qed.

(** payload block "hello", CRC-16; the corrupted one carries "hellp" *)
Definition ex_block : cblock := with_crc_block (mkCBlock 1 1 0 1 [104; 101; 108; 108; 111] None).
Definition ex_block' : cblock := set_bcrc (mkCBlock 1 1 0 1 [104; 101; 108; 108; 112] None) (bcrc ex_block).
Definition ex_pre : bytes := [134; 1; 1; 0; 1; 69; 104; 101; 108; 108] ++ [111] ++ [66].
Definition ex_pre' : bytes := [134; 1; 1; 0; 1; 69; 104; 101; 108; 108] ++ [112] ++ [66].

Example detect_burst_block_hyps :
  crc_ok_block ex_block = true
  /\ (exists v, encode_cblock ex_block = ex_pre ++ v /\ encode_cblock ex_block' = ex_pre' ++ v /\ length v = 2%nat)
  /\ bcrc_type ex_block' = bcrc_type ex_block /\ bcrc_type ex_block = 1
  /\ burst_apart 16 ex_pre ex_pre'
  /\ crc_ok_block ex_block' = false.
Proof.
  split; [apply check_accepts_block|]. split.
  { eexists. vm_compute. repeat split. }
  split; [vm_compute; reflexivity|]. split; [vm_compute; reflexivity|]. split.
  { unfold ex_pre, ex_pre'.
    apply burst_apart_window; try (cbn; lia); try discriminate; repeat constructor; unfold wf_byte; lia. }
  vm_compute; reflexivity.
Qed.

(** CRC-32 and the primary block: the real bundle of [BundleProofs] *)
Example detect_hyps_real_bundle :
  crc_ok_primary (prim real_bundle) = true /\ crc_type (prim real_bundle) = 2
  /\ Forall (fun b => crc_ok_block b = true) (blocks real_bundle)
  /\ map bcrc_type (blocks real_bundle) = [1; 0; 2].
Proof.
  split; [vm_compute; reflexivity|]. split; [vm_compute; reflexivity|]. split; [|vm_compute; reflexivity].
  repeat (apply Forall_cons; [vm_compute; reflexivity|]). apply Forall_nil.
Qed.

(** On strictly decoded octets the lax reading agrees with the codec model. *)
Lemma lax_of_strict_block (b : cblock) :
  (bcrc_type b = 0 /\ bcrc b = None) \/ bcrc_type b = 1 \/ bcrc_type b = 2 ->
  lax_crc_ok_block (lblock_of_cblock b) = crc_ok_block b.
Proof.
  destruct b as [t n f ct d c]. cbn [bcrc_type bcrc].
  intros [[-> ->]|[-> | ->]]; [reflexivity| |]; destruct c as [v|]; reflexivity.
Qed.

(** valid bundle, every block CRC-16, payload " 0e" *)
Definition witness_bundle : bundle :=
  with_crc_bundle
    (mkBundle (mkPrimary 7 0 1 (EidDtn [47;47;109;101;47;97;112;112]) (EidDtn [47;47;97;47]) EidDtnNone
                         1000 1 3600000 None None)
              [mkCBlock 1 1 0 1 [32; 48; 101] None]).
Definition witness_octets : bytes :=
  unhex 52 0x9f890700018201682f2f6d652f6170708201642f2f612f820100821903e8011a0036ee8042ca5b860101000143203065424b7eff.
(** bit 5 (0x20) of octet 44, the head of the payload block's BTSD: bstr(3) -> tstr(3) *)
Definition witness_corrupted : bytes := xor_at 44 [32] witness_octets.

Theorem detect_refuted :
  wf_bundle witness_bundle /\ crc_ok_bundle witness_bundle = true
  /\ crc_type (prim witness_bundle) = 1 /\ map bcrc_type (blocks witness_bundle) = [1]
  /\ encode_bundle witness_bundle = witness_octets
  /\ (* the flipped octet lies inside the CRC-16 protected payload block, in front of its CRC value *)
     (exists pre blk, witness_octets = pre ++ blk ++ [255] /\ blk = encode_cblock (with_crc_block (mkCBlock 1 1 0 1 [32; 48; 101] None))
                      /\ length pre = 39%nat /\ length blk = 12%nat)
  /\ (* the received octets fail the RFC 9171 check of an independent receiver ... *)
     crc16_x25 (firstn 10 (skipn 39 witness_corrupted) ++ [0; 0]) <> unbe (firstn 2 (skipn 49 witness_corrupted))
  /\ (* ... but the implementation's check, done on the re-encoding of what it decoded, passes *)
     lax_verdict witness_corrupted = 2
  /\ (exists p lb, lax_decode_bundle witness_corrupted = Some (p, [lb]) /\ l_btsd lb = None
                   /\ lax_crc_ok_block lb = true /\ lblock_reencode lb <> firstn 12 (skipn 39 witness_corrupted)).
Proof.
  unfold witness_corrupted, witness_octets. rewrite unhex_shift.
  set (w := be_shift _ _). (* the octets, named for the [exists] below *)
  split; [apply wf_bundleb_spec; vm_compute; reflexivity|].
  split; [apply check_accepts_bundle|]. split; [vm_compute; reflexivity|]. split; [vm_compute; reflexivity|].
  split; [vm_compute; reflexivity|]. split.
  - exists (firstn 39 w), (firstn 12 (skipn 39 w)). vm_compute. repeat split.
  - split; [vm_compute; discriminate|]. split; [vm_compute; reflexivity|].
    eexists. eexists. split; [vm_compute; reflexivity|]. split; [vm_compute; reflexivity|].
    split; [vm_compute; reflexivity|]. vm_compute. discriminate.
Qed.

(** value-preserving re-spelling: type code 0x01 -> 0xf5 (CBOR true, read as 1) *)
Theorem detect_refuted_same_value :
  lax_verdict (xor_at 40 [244] witness_octets) = 2
  /\ (exists p lb, lax_decode_bundle (xor_at 40 [244] witness_octets) = Some (p, [lb])
                   /\ lblock_reencode lb = firstn 12 (skipn 39 witness_octets)
                   /\ lblock_reencode lb <> firstn 12 (skipn 39 (xor_at 40 [244] witness_octets))).
Proof.
  unfold witness_octets. rewrite unhex_shift.
  split; [vm_compute; reflexivity|]. eexists. eexists. split; [vm_compute; reflexivity|].
  split; [vm_compute; reflexivity|]. vm_compute. discriminate.
Qed.

(** altered EID normalised back: source //a/ -> //a? (one bit, octet 26, inside
    the CRC-16 primary block) *)
Definition eid_witness_octets : bytes :=
  unhex 91 0x9f89071a00064000018201682f2f6d652f6170708201642f2f612f8201672f2f612f727074821903e8011a0036ee8042b3f38601010001581e0102030102030102030102030102030102030102030102030102030102034261f3ff.

Theorem detect_refuted_eid :
  strict_verdict eid_witness_octets = (2, true)
  /\ lax_verdict (xor_at 26 [16] eid_witness_octets) = 2
  /\ (exists b, decode_bundle (xor_at 26 [16] eid_witness_octets) = Some b
                /\ src (prim b) = EidDtn [47; 47; 97; 63]
                /\ crc_ok_primary (prim b) = false
                /\ crc_ok_primary (impl_norm_primary (prim b)) = true
                /\ encode_primary (impl_norm_primary (prim b)) = firstn 49 (skipn 1 eid_witness_octets)).
Proof.
  unfold eid_witness_octets. rewrite unhex_shift.
  split; [vm_compute; reflexivity|]. split; [vm_compute; reflexivity|].
  eexists. split; [vm_compute; reflexivity|]. repeat (split; [vm_compute; reflexivity|]). vm_compute; reflexivity.
Qed.

Lemma strict_block_arity c b : cblock_of_cbor c = Some b -> block_arity_bad c = false.
Proof.
  destruct c as [| | | |l| | |]; try discriminate. cbn [cblock_of_cbor]. intros H.
  apply cblock_of_items_spec in H as [<- Hc]. destruct b as [t n f ct d c]. cbn [bcrc bcrc_type] in Hc.
  cbn [block_arity_bad cblock_items bcrc_type app nth_error length]. destruct c as [v|]; cbn [bcrc crc_items length].
  - destruct (N.eqb_spec ct 0) as [H0|H0]; [|reflexivity]. apply Hc in H0. discriminate.
  - rewrite (proj1 Hc eq_refl). reflexivity.
Qed.

Lemma lax_block_arity c b : lblock_of_cbor c = Some b -> block_arity_bad c = false.
Proof.
  destruct c as [| | | |l| | |]; cbn [lblock_of_cbor]; try discriminate.
  unfold lblock_of_items, lblock_head.
  destruct l as [|t [|n [|f [|ct0 [|d rest]]]]]; try discriminate.
  destruct (lax_uint t); [|discriminate]. destruct (lax_uint n); [|discriminate].
  destruct (lax_uint f); [|discriminate]. destruct (lax_uint ct0) as [ct|] eqn:Ect; [|discriminate].
  destruct (lax_bstr d); [|discriminate].
  cbn [block_arity_bad nth_error].
  destruct ct0 as [x| | | | | | |]; try (intros _; reflexivity).
  cbn [lax_uint] in Ect. injection Ect as ->.
  destruct (ct =? 0) eqn:E0.
  - destruct rest; [intros _; reflexivity|discriminate].
  - destruct ((ct =? 1) || (ct =? 2)); [|discriminate].
    destruct rest as [|v [|w rest]]; try discriminate. intros _. reflexivity.
Qed.

Lemma cblocks_of_arity : forall l bl, cblocks_of l = Some bl -> existsb block_arity_bad l = false.
Proof.
  induction l as [|c l IH]; intros bl H; [reflexivity|]. cbn [cblocks_of] in H.
  destruct (cblock_of_cbor c) as [b|] eqn:E; [|discriminate].
  destruct (cblocks_of l) as [r|] eqn:E2; [|discriminate].
  cbn [existsb]. rewrite (strict_block_arity c b E), (IH r eq_refl). reflexivity.
Qed.

Lemma lblocks_of_arity : forall l bl, lblocks_of l = Some bl -> existsb block_arity_bad l = false.
Proof.
  induction l as [|c l IH]; intros bl H; [reflexivity|]. cbn [lblocks_of] in H.
  destruct (lblock_of_cbor c) as [b|] eqn:E; [|discriminate].
  destruct (lblocks_of l) as [r|] eqn:E2; [|discriminate].
  cbn [existsb]. rewrite (lax_block_arity c b E), (IH r eq_refl). reflexivity.
Qed.

(** a canonical block array with left-over (or missing) items: no reading of the
    model decodes the bundle *)
Theorem arity_bad_rejected (bs : bytes) :
  arity_verdict bs = 1 -> decode_bundle bs = None /\ lax_decode_bundle bs = None.
Proof.
  unfold arity_verdict, decode_bundle, lax_decode_bundle.
  destruct (decode bundle_fuel bs) as [[c tl]|]; [|discriminate].
  destruct c as [| | | |l| | |]; try discriminate. destruct l as [|p rest]; [discriminate|].
  destruct (existsb block_arity_bad rest) eqn:E; [intros _|discriminate].
  cbn [bundle_of_cbor bundle_of_items]. destruct p as [| | | |pl| | |]; try (split; reflexivity).
  destruct (primary_of_items pl) as [pp|]; [|split; reflexivity]. split.
  - destruct (cblocks_of rest) as [bl|] eqn:E2; [|reflexivity].
    rewrite (cblocks_of_arity rest bl E2) in E. discriminate.
  - destruct (is_admin pp); [reflexivity|].
    destruct (lblocks_of rest) as [bl|] eqn:E2; [|reflexivity].
    rewrite (lblocks_of_arity rest bl E2) in E. discriminate.
Qed.

(** the two structural single-bit corruptions of the corpus: next block swallowed
    (head 0x86 -> 0x87) and CRC type 2 -> 0 with the CRC item left over *)
Definition arity_witness_octets : bytes :=
  unhex 109 0x9f89071a00024004028201682f2f6d652f782f798201692f2f6e6f64652d622f820100821b000000a2fb40580c171903e844381fb39786071901000002491bffffffffffffffff44e583d6cb8601010101570c5fd276561a2dbcfcd9ef5abe279084381624cee40350427212ff.

Example arity_bad_nonvacuous :
  arity_verdict arity_witness_octets = 2 /\ strict_verdict arity_witness_octets = (2, true)
  /\ arity_verdict (xor_at 54 [1] arity_witness_octets) = 1
  /\ arity_verdict (xor_at 60 [2] arity_witness_octets) = 1.
Proof.
  unfold arity_witness_octets. rewrite unhex_shift.
  repeat (split; [vm_compute; reflexivity|]). vm_compute; reflexivity.
Qed.

(** The table translated from [blocks.py], [Gen/CrcTable.v], is the one the model uses. *)

Theorem gen_table_field (ct : N) (bs : bytes) : CrcTable.gen_crc_field ct bs = crc_field ct bs.
Proof.
  unfold CrcTable.gen_crc_field, crc_field, CrcTable.CRCTYPE_CRC16, CrcTable.CRCTYPE_CRC32.
  destruct (ct =? 1); [reflexivity|]. destruct (ct =? 2); reflexivity.
Qed.

Theorem gen_table_types (ct : N) : In ct CrcTable.crc_type_values <-> crc_type_ok ct = true.
Proof.
  unfold CrcTable.crc_type_values, crc_type_ok. cbn [In]. rewrite N.ltb_lt. lia.
Qed.

Theorem gen_table_zero (ct : N) : In ct CrcTable.crc_type_values ->
  CrcTable.gen_crc_zero ct = crc_zero ct /\ CrcTable.gen_crc_width ct = crc_width ct.
Proof.
  unfold CrcTable.crc_type_values. cbn [In]. intros [<-|[<-|[<-|[]]]]; split; reflexivity.
Qed.

