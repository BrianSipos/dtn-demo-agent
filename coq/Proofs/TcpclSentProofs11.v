(** TCPCL endpoint model: an independent statement of the RFC 9174 frame
    grammar, and the proof that what an endpoint sends is a prefix of a legal
    sequence. *)
From Coq Require Import NArith List Bool Lia.
From RecordUpdate Require Import RecordSet.
From DTN Require Import Lib.Bytes Model.TcpclMsg Model.TcpclSess
  Proofs.TcpclSentProofs2 Proofs.TcpclSentProofs5 Proofs.TcpclSentProofs7 Proofs.TcpclSentProofs8 Proofs.TcpclSentProofs9 Proofs.TcpclSessSpec.
Import ListNotations RecordSetNotations.
Local Open Scope N_scope.

(** A contact header with the right magic and version (any flags): the model's
    [contact_ok], spelt out again so that the grammar reads without the model. *)
Definition is_ch (f : frame) : bool :=
  match f with FContact c => bytes_eqb (ch_magic c) MAGIC && (ch_version c =? 4) | FMsg _ => false end.

(** After SESS_INIT: XFER_SEGMENT / XFER_ACK / XFER_REFUSE / KEEPALIVE /
    MSG_REJECT in any order, at most one SESS_TERM, and (when [strict]) no START
    segment after it.  [term] = a SESS_TERM has been seen. *)
Fixpoint body (strict term : bool) (l : list frame) : bool :=
  match l with
  | [] => true
  | f :: r =>
    match f with
    | FMsg (MXferSeg fl _ _ _) => (negb strict || negb term || negb (has_start fl)) && body strict term r
    | FMsg (MSessTerm _ _) => negb term && body strict true r
    | FMsg (MSessInit _ _ _ _ _) => false
    | FContact _ => false
    | FMsg _ => body strict term r
    end
  end.

(** contact header; SESS_INIT; body. *)
Definition legal_gen (strict : bool) (l : list frame) : bool :=
  match l with
  | f1 :: f2 :: r => is_ch f1 && is_initf f2 && body strict false r
  | _ => false
  end.

(** Every prefix of a legal sequence. *)
Definition legal_prefix_gen (strict : bool) (l : list frame) : bool :=
  match l with
  | [] => true
  | [f1] => is_ch f1
  | _ => legal_gen strict l
  end.

Definition legal := legal_gen true.
Definition legal_prefix := legal_prefix_gen true.
(** The grammar without the clause on START segments after SESS_TERM. *)
Definition legal_prefix_weak := legal_prefix_gen false.

Lemma body_app strict : forall a b term, body strict term (a ++ b) = true -> body strict term a = true.
Proof.
  induction a as [|f a IH]; intros b term H; [reflexivity|]. cbn [app body] in *.
  destruct f as [c|[]]; try discriminate H; try (eapply IH; exact H).
  - apply andb_true_iff in H. destruct H as [H1 H2]. rewrite H1. cbn [andb]. eapply IH; exact H2.
  - apply andb_true_iff in H. destruct H as [H1 H2]. rewrite H1. cbn [andb]. eapply IH; exact H2.
Qed.

(** [legal_prefix] is what its name says. *)
Theorem legal_prefix_spec strict l :
  legal_prefix_gen strict l = true <-> exists l', legal_gen strict (l ++ l') = true.
Proof.
  split.
  - destruct l as [|f1 [|f2 r]]; cbn [legal_prefix_gen].
    + intros _. exists [our_contact; FMsg (MSessInit 0 0 0 [] [])]. reflexivity.
    + intros H. exists [FMsg (MSessInit 0 0 0 [] [])]. cbn. rewrite H. reflexivity.
    + intros H. exists []. rewrite app_nil_r. exact H.
  - intros [l' H]. destruct l as [|f1 [|f2 r]]; cbn [legal_prefix_gen]; [reflexivity| |].
    + destruct l' as [|f2 r]; [discriminate H|]. cbn in H.
      apply andb_true_iff in H. destruct H as [H _]. apply andb_true_iff in H. destruct H as [H _]. exact H.
    + cbn [app legal_gen] in *. apply andb_true_iff in H. destruct H as [H1 H2]. rewrite H1. cbn [andb].
      eapply body_app. exact H2.
Qed.

Lemma body_ok strict : forall (r : list frame) (term : bool),
  AllMsg r -> ninit r = 0%nat ->
  (if term then nterm r = 0%nat /\ (strict = true -> Forall nostartf r)
   else (nterm r <= 1)%nat /\ (strict = true -> Forall nostartf (after_term r))) ->
  body strict term r = true.
Proof.
  induction r as [|f r IH]; intros term Ha Hi Ht; [reflexivity|].
  inversion Ha as [|f' r' [m Hm] Ha']. subst f' r' f.
  unfold ninit in Hi. cbn [filter is_initf] in Hi. destruct (is_init m) eqn:Ei; [discriminate Hi|].
  unfold nterm in Ht. cbn [filter after_term] in Ht.
  destruct (is_sess_term (FMsg m)) eqn:Et.
  - (* SESS_TERM: must be the first one *)
    destruct m; try discriminate Et. cbn [body]. destruct term; [destruct Ht as [Hn _]; discriminate Hn|].
    destruct Ht as [Hn Hf]. cbn [length] in Hn. apply IH; [assumption|assumption|]. split; [unfold nterm; lia|exact Hf].
  - (* any other message leaves the obligations on the tail as they are *)
    assert (Hr : body strict term r = true).
    { apply IH; [assumption|assumption|]. destruct term; [|exact Ht]. destruct Ht as [Hn Hf].
      split; [exact Hn|]. intros E. specialize (Hf E). inversion Hf; assumption. }
    destruct m; try discriminate Et; try discriminate Ei; cbn [body]; try exact Hr.
    rewrite Hr, andb_true_r. destruct term; [|rewrite orb_true_r; reflexivity].
    destruct strict; [|reflexivity]. destruct Ht as [_ Hf]. specialize (Hf eq_refl). inversion Hf as [|x y Hx Hy].
    cbn [nostartf] in Hx. rewrite Hx. reflexivity.
Qed.

Lemma grammar_from strict l :
  sent_shape l ->
  (forall f1 f2 rest, l = f1 :: f2 :: rest -> is_initf f2 = true /\ ninit rest = 0%nat) ->
  (nterm l <= 1)%nat ->
  (strict = true -> Forall nostartf (after_term l)) ->
  legal_prefix_gen strict l = true.
Proof.
  intros Hs H2 Ht Hn. destruct l as [|f1 [|f2 r]]; [reflexivity| |].
  - destruct Hs as [Hs|(rest&Hs&_)]; [discriminate|]. inversion Hs. reflexivity.
  - destruct Hs as [Hs|(rest&Hs&Ha)]; [discriminate|]. inversion Hs. subst f1 rest.
    destruct (H2 _ _ _ eq_refl) as [Hi Hr]. cbn [legal_prefix_gen legal_gen]. rewrite Hi.
    change (is_ch our_contact) with true. cbn [andb].
    inversion Ha as [|x y [i Hx] Hy]. subst x y f2. cbn [is_initf] in Hi.
    apply body_ok; [exact Hy|exact Hr|]. split.
    + unfold nterm in *. cbn [filter is_sess_term our_contact] in Ht. destruct i; try discriminate Hi. exact Ht.
    + intros E. specialize (Hn E). cbn [after_term is_sess_term our_contact] in Hn.
      destruct i; try discriminate Hi. exact Hn.
Qed.

(** The grammar for a run, given what the second frame sent is; the clause on
    START segments ([strict]) needs the segment size to stay positive. *)
Lemma grammar_run strict c ops :
  (forall f1 f2 rest, sent (run c ops) = f1 :: f2 :: rest -> is_initf f2 = true /\ ninit rest = 0%nat) ->
  (strict = true -> forall k, pos_seg (run c (firstn k ops))) ->
  legal_prefix_gen strict (sent (run c ops)) = true.
Proof.
  intros H2 Hp. apply grammar_from; [apply CF_run|exact H2|apply nterm_run|].
  intros E. destruct (Inv_no_start_run c ops (Hp E)) as (_&_&H). exact H.
Qed.

Lemma active_second c ops : c_passive c = false ->
  forall f1 f2 rest, sent (run c ops) = f1 :: f2 :: rest -> is_initf f2 = true /\ ninit rest = 0%nat.
Proof.
  intros Ha f1 f2 rest E. destruct (sess_init_active c ops Ha) as (_&H2&H3).
  destruct (H2 _ _ _ E) as (ka&mru&xm&nid&ext&Hf). split; [rewrite Hf; reflexivity|exact (H3 _ _ _ E)].
Qed.

(** An active endpoint, whatever the peer does: the grammar without the
    clause on START segments holds unconditionally ... *)
Theorem C04_grammar_active_weak c ops : c_passive c = false -> legal_prefix_weak (sent (run c ops)) = true.
Proof. intros Ha. apply grammar_run; [apply active_second, Ha|discriminate]. Qed.

(** ... and the full grammar when the segment size in use is positive (the
    unconditional statement is refuted by [no_start_after_term_refuted]). *)
Theorem C04_grammar_active_partial c ops : c_passive c = false ->
  (forall k, pos_seg (run c (firstn k ops))) -> legal_prefix (sent (run c ops)) = true.
Proof. intros Ha Hp. apply grammar_run; [apply active_second, Ha|intros _; exact Hp]. Qed.

(** The peer behaves: after the contact header it sends SESS_INIT first and
    never a second one.  ([is_initf c0 = false]: the first frame handled, the contact
    header, does not count as a SESS_INIT; a contact header in second place is
    excluded.) *)
Definition peer_coop (h : list frame) : Prop :=
  match h with
  | c0 :: FMsg m :: r => is_initf c0 = false /\ is_init m = true /\ ninit r = 0%nat
  | _ :: FContact _ :: _ => False
  | _ => True
  end.

Lemma passive_second c ops : c_passive c = true -> peer_coop (handled (run c ops)) ->
  forall f1 f2 rest, sent (run c ops) = f1 :: f2 :: rest -> is_initf f2 = true /\ ninit rest = 0%nat.
Proof.
  intros Hp Hc f1 f2 rest E. destruct (InvP_run c ops) as ((_&C1&C2&_)&H1&H2).
  unfold init_answered, init_first in *. rewrite cf_run in *. specialize (H1 Hp). specialize (H2 Hp). specialize (C2 Hp).
  destruct (handled (run c ops)) as [|c0 [|[c1|m] hs]]; cbn [peer_coop] in Hc.
  - rewrite (C2 H2) in E. discriminate.
  - destruct H2 as [H2 _]. rewrite E in H2. cbn in H2. lia.
  - contradiction.
  - destruct Hc as (Hc0&Hm&Hr). destruct (H2 Hm) as (g1&i&r'&E'&Hi). rewrite E in E'. inversion E'. subst g1 f2 r'.
    split; [exact Hi|]. rewrite E in H1. unfold ninit in *. cbn [filter is_initf] in H1.
    destruct C1 as [C1|(rr&C1&_)]; [rewrite E in C1; discriminate|]. rewrite E in C1. inversion C1. subst f1.
    cbn [is_initf our_contact] in H1. rewrite Hc0, Hi, Hm in H1. cbn [length] in H1. lia.
Qed.

Theorem C04_grammar_passive_weak c ops : c_passive c = true -> peer_coop (handled (run c ops)) ->
  legal_prefix_weak (sent (run c ops)) = true.
Proof. intros Hp Hc. apply grammar_run; [apply passive_second; assumption|discriminate]. Qed.

Theorem C04_grammar_passive_partial c ops : c_passive c = true -> peer_coop (handled (run c ops)) ->
  (forall k, pos_seg (run c (firstn k ops))) -> legal_prefix (sent (run c ops)) = true.
Proof. intros Hp Hc Hs. apply grammar_run; [apply passive_second; assumption|intros _; exact Hs]. Qed.

(** What an active endpoint sends makes it a cooperating peer: every prefix of
    its frame sequence satisfies [peer_coop]. *)
Lemma active_is_coop cA opsA h more : c_passive cA = false ->
  sent (run cA opsA) = h ++ more -> peer_coop h.
Proof.
  intros Ha E. destruct h as [|c0 [|f2 r]]; [exact I|exact I|]. cbn [app] in E.
  destruct (active_second cA opsA Ha _ _ _ E) as [Hi Hr].
  destruct (CF_run cA opsA) as ([C1|(rr&C1&_)]&_); [rewrite E in C1; discriminate|]. rewrite E in C1. inversion C1. subst c0.
  destruct f2 as [c|m]; [discriminate Hi|]. cbn [peer_coop]. split; [reflexivity|]. split; [exact Hi|].
  rewrite ninit_app in Hr. lia.
Qed.

(** The two compose: a passive endpoint that has handled a prefix of what an
    active endpoint sent (the channel property, proved in C07) sends a prefix
    of a legal sequence. *)
Theorem C04_pair_weak cA opsA cB opsB : c_passive cA = false -> c_passive cB = true ->
  (exists more, sent (run cA opsA) = handled (run cB opsB) ++ more) ->
  legal_prefix_weak (sent (run cA opsA)) = true /\ legal_prefix_weak (sent (run cB opsB)) = true.
Proof.
  intros Ha Hb [more E]. split; [apply C04_grammar_active_weak, Ha|].
  apply C04_grammar_passive_weak; [exact Hb|]. eapply active_is_coop; [exact Ha|exact E].
Qed.

Theorem C04_pair_partial cA opsA cB opsB : c_passive cA = false -> c_passive cB = true ->
  (exists more, sent (run cA opsA) = handled (run cB opsB) ++ more) ->
  (forall k, pos_seg (run cA (firstn k opsA))) -> (forall k, pos_seg (run cB (firstn k opsB))) ->
  legal_prefix (sent (run cA opsA)) = true /\ legal_prefix (sent (run cB opsB)) = true.
Proof.
  intros Ha Hb [more E] HpA HpB. split; [apply C04_grammar_active_partial; assumption|].
  apply C04_grammar_passive_partial; [exact Hb| |exact HpB]. eapply active_is_coop; [exact Ha|exact E].
Qed.
