(* C15 -- proofs about the GENERATED definitions of Gen/TlsPolicy.v against the
   specification Model/TlsSpec.v.  Everything here is re-checked against what
   session.py says now (the Gen file is regenerated on every run). *)
From Coq Require Import List NArith Bool.
Import ListNotations.
From DTN Require Import Gen.TlsPolicy Model.TlsSpec.

Lemma bit0_test : forall f : N, negb (N.eqb (N.land f 1) 0) = N.testbit f 0.
Proof. intros [|[p|p|]]; reflexivity. Qed.

(* [tls_attempt_bits], [tls_iff_both]: for all values of the two flags octets, reserved bits included *)
Lemma tls_attempt_bits : forall this_flags peer_flags : N,
  tls_attempt this_flags peer_flags = offers_tls this_flags && offers_tls peer_flags.
Proof.
  intros a b. unfold tls_attempt, can_tls_bit, offers_tls. cbv zeta. rewrite !bit0_test. reflexivity.
Qed.

Lemma tls_iff_both : forall this_flags peer_flags : N,
  tls_attempt this_flags peer_flags = true <-> (N.testbit this_flags 0 = true /\ N.testbit peer_flags 0 = true).
Proof. intros a b. rewrite tls_attempt_bits. unfold offers_tls. apply andb_true_iff. Qed.

(* The contact step as one test: it goes on, with the security state the two
   headers call for, iff that state is the required one (if one is required)
   and, where TLS is called for, the handshake succeeded. *)
Lemma contact_outcome_closed_form : forall req attempt ok,
  contact_outcome req attempt ok =
  if match req with Some r => Bool.eqb r attempt | None => true end && (negb attempt || ok)
  then Proceed attempt else Closed.
Proof. intros [[]|] [] []; reflexivity. Qed.

Lemma contact_proceeds : forall req attempt ok s,
  contact_outcome req attempt ok = Proceed s ->
  s = attempt /\ (attempt = true -> ok = true) /\ match req with Some r => s = r | None => True end.
Proof.
  intros req a ok s. rewrite contact_outcome_closed_form.
  destruct (_ && _) eqn:T; [|discriminate]. intros H. injection H as <-.
  apply andb_true_iff in T as [R K]. split; [reflexivity|]. split.
  - intros ->. exact K.
  - destruct req as [r|]; [|exact I]. symmetry. apply eqb_prop, R.
Qed.

Lemma require_tls_never_clear : forall attempt ok s,
  contact_outcome (Some true) attempt ok = Proceed s -> s = true.
Proof. intros a ok s H. apply (contact_proceeds _ _ _ _ H). Qed.

Lemma forbid_tls_never_secured : forall attempt ok s,
  contact_outcome (Some false) attempt ok = Proceed s -> s = false.
Proof. intros a ok s H. apply (contact_proceeds _ _ _ _ H). Qed.

Lemma secured_only_by_handshake : forall req attempt ok,
  contact_outcome req attempt ok = Proceed true -> attempt = true /\ ok = true.
Proof.
  intros req a ok H. destruct (contact_proceeds _ _ _ _ H) as (<- & K & _). split; [reflexivity|exact (K eq_refl)].
Qed.

Lemma no_sessinit_unless_policy : forall req (this_flags peer_flags : N) ok s,
  contact_outcome req (tls_attempt this_flags peer_flags) ok = Proceed s ->
  tls_use_ok req (offers_tls this_flags) (offers_tls peer_flags) s.
Proof.
  intros req a b ok s H. destruct (contact_proceeds _ _ _ _ H) as (E & _ & R).
  split; [rewrite E; apply tls_attempt_bits|exact R].
Qed.

(* the contact step never stalls: it closes exactly in the cases below *)
Lemma contact_closed_iff : forall req attempt ok,
  contact_outcome req attempt ok = Closed <->
  ((exists r, req = Some r /\ r <> attempt) \/ (attempt = true /\ ok = false)).
Proof.
  intros req a ok. rewrite contact_outcome_closed_form.
  destruct (_ && _) eqn:T; (split; [try discriminate|try reflexivity]); intros H.
  - exfalso. apply andb_true_iff in T as [R K]. destruct H as [(r & -> & N)|[-> ->]]; [|discriminate K].
    apply N, eqb_prop, R.
  - apply andb_false_iff in T as [R|K].
    + left. destruct req as [r|]; [|discriminate R]. exists r. split; [reflexivity|].
      intros ->. rewrite eqb_reflx in R. discriminate R.
    + right. destruct a, ok; try discriminate K. split; reflexivity.
Qed.

Lemma memb_In : forall r l, existsb (N.eqb r) l = true <-> In r l.
Proof.
  intros r l. rewrite existsb_exists. split.
  - intros [x [H E]]. apply N.eqb_eq in E. subst. exact H.
  - intros H. exists r. split; [exact H | apply N.eqb_refl].
Qed.

(* The three tests the decision makes on a [match_id] result, in the
   vocabulary of the specification. *)
Lemma mismatch_some : forall (r : N) (ids : list N),
  is_mismatch (match_id (Some r) ids) = negb (kind_consistentb (Some r) ids).
Proof.
  intros r [|x xs]; [reflexivity|]. unfold match_id. cbn [nonempty id_in kind_consistentb ret_ref]. unfold memb.
  destruct (existsb _ _); reflexivity.
Qed.

Lemma matched_some : forall (r : N) (ids : list N), is_matched (match_id (Some r) ids) = memb r ids.
Proof.
  intros r [|x xs]; [reflexivity|]. unfold match_id, memb. cbn [nonempty id_in ret_ref].
  destruct (existsb _ _); reflexivity.
Qed.

Lemma absent_empty : forall ref ids, is_absent (match_id ref ids) = negb (nonempty ids).
Proof.
  intros ref [|x xs]; [reflexivity|]. unfold match_id.
  destruct ref; cbn [nonempty id_in ret_ref]; [destruct (existsb _ _)|]; reflexivity.
Qed.

(* the DNS reference of the code, as far as it is truthy, is the DNS name the endpoint knows *)
Lemma dns_reference : forall passive peer_name peer_addr,
  known_dns_name passive peer_name peer_addr =
  (if optid_truthy (peer_dnsid passive peer_name peer_addr) then peer_dnsid passive peer_name peer_addr else None).
Proof.
  intros [] n a; unfold peer_dnsid, known_dns_name, optid_truthy, id_truthy, TlsPolicy.empty_id, TlsSpec.empty_id;
    try reflexivity.
  destruct (N.eqb n a); [reflexivity|]. destruct (N.eqb n 0); reflexivity.
Qed.

Lemma dns_reference_some : forall passive peer_name peer_addr d,
  known_dns_name passive peer_name peer_addr = Some d <->
  (peer_dnsid passive peer_name peer_addr = Some d /\ d <> TlsSpec.empty_id).
Proof.
  intros p n a d. rewrite dns_reference.
  destruct (peer_dnsid p n a) as [x|]; cbn [optid_truthy]; [|split; [discriminate|intros [H _]; discriminate]].
  unfold id_truthy, TlsPolicy.empty_id, TlsSpec.empty_id.
  destruct (N.eqb x 0) eqn:E; cbn [negb].
  - apply N.eqb_eq in E. subst x. split; [discriminate|]. intros [H N]. inversion H; subst. contradiction.
  - apply N.eqb_neq in E. split.
    + intros H. inversion H; subst. split; [reflexivity|exact E].
    + intros [H _]. exact H.
Qed.

Lemma nil_dec : forall (A : Type) (l : list A), l = [] \/ l <> [].
Proof. intros A [|x xs]; [left; reflexivity | right; discriminate]. Qed.

(* the computable rendering of the specification agrees with it *)
Lemma policy_okb_ok : forall addr dns node ips dnss uris rh rn,
  policy_okb addr dns node ips dnss uris rh rn = true <-> policy_ok addr dns node ips dnss uris rh rn.
Proof.
  intros addr dns node ips dnss uris rh rn.
  assert (KC : forall ref l, kind_consistentb ref l = true <-> kind_consistent ref l).
  { intros ref l. unfold kind_consistentb, kind_consistent. destruct ref as [r|]; [|split; [intros _ r' H; discriminate|reflexivity]].
    destruct l as [|x xs]; [split; [intros _ r' _ H; contradiction|reflexivity]|].
    unfold memb. rewrite memb_In. split.
    - intros H r' E _. inversion E; subst. exact H.
    - intros H. apply H; [reflexivity|discriminate]. }
  unfold policy_okb, policy_ok, no_contradiction, host_authenticated, node_authenticated, host_authenticatedb.
  rewrite !andb_true_iff, !orb_true_iff, !KC, !negb_true_iff. unfold memb. rewrite !memb_In.
  split.
  - intros [[[[A B] C] D] E]. repeat split; auto.
    + intros R. destruct D as [D|[D|D]]; [congruence|left; exact D|].
      destruct dns as [d|]; [|discriminate]. right. exists d. split; [reflexivity|apply memb_In; exact D].
    + intros R. destruct E as [E|E]; [congruence|exact E].
  - intros [[A [B C]] [D E]]. repeat split; auto.
    + destruct rh; [right|left; reflexivity]. destruct (D eq_refl) as [H|[d [Ed H]]]; [left; exact H|].
      right. subst dns. apply memb_In. exact H.
    + destruct rn; [right; apply E; reflexivity|left; reflexivity].
Qed.

Section Refusal.
  Variables (passive : bool) (peer_name peer_addr node : N) (ips dnss uris : list N).
  Variables (rh rn : bool).

  (* [dns]: what the specification calls the peer's DNS name; [cdns]: the reference the code passes to match_id *)
  Let dns := known_dns_name passive peer_name peer_addr.
  Let cdns := peer_dnsid passive peer_name peer_addr.
  Let refuses := authn_refuses passive peer_name peer_addr node ips dnss uris rh rn.

  (* the code guards both uses of the DNS result by the truth value of its reference *)
  Lemma dns_tests :
    optid_truthy cdns && is_mismatch (match_id cdns dnss) = negb (kind_consistentb dns dnss) /\
    is_matched (match_id cdns dnss) && optid_truthy cdns = match dns with Some d => memb d dnss | None => false end.
  Proof.
    unfold dns. rewrite dns_reference. fold cdns. destruct cdns as [d|]; [|split; [reflexivity|apply andb_false_r]].
    cbn [optid_truthy]. destruct (id_truthy d); [|split; [reflexivity|apply andb_false_r]].
    rewrite mismatch_some, matched_some. split; [reflexivity|apply andb_true_r].
  Qed.

  (* The decision refuses exactly what the (computable) policy does not allow. *)
  Lemma refuses_policy : refuses = negb (policy_okb peer_addr dns node ips dnss uris rh rn).
  Proof.
    unfold refuses, authn_refuses, policy_okb, host_authenticatedb. cbv zeta. fold cdns.
    destruct dns_tests as [-> ->]. rewrite !mismatch_some, !matched_some, absent_empty.
    destruct (kind_consistentb (Some peer_addr) ips); [|reflexivity].
    destruct (kind_consistentb dns dnss); [|reflexivity].
    (* over no URI at all the node ID is consistent and not a member, otherwise consistent iff a member *)
    destruct uris as [|u us]; cbn [kind_consistentb nonempty]; [|destruct (memb node (u :: us))];
      destruct (memb peer_addr ips), (match dns with Some d => memb d dnss | None => false end), rh, rn; reflexivity.
  Qed.

  Lemma authn_sound :
    refuses = false -> policy_ok peer_addr dns node ips dnss uris rh rn.
  Proof. rewrite refuses_policy, negb_false_iff. apply policy_okb_ok. Qed.

  (* no over-refusal: whatever the policy allows is accepted *)
  Lemma authn_complete :
    policy_ok peer_addr dns node ips dnss uris rh rn -> refuses = false.
  Proof. rewrite refuses_policy, negb_false_iff. apply policy_okb_ok. Qed.

  Lemma authn_no_contradiction :
    refuses = false -> no_contradiction peer_addr dns node ips dnss uris.
  Proof. intros H. apply (authn_sound H). Qed.

  (* host clause: required => an IP or DNS identifier of the certificate actually matched *)
  Lemma authn_host :
    refuses = false -> rh = true -> host_authenticated peer_addr dns ips dnss.
  Proof. intros H. apply (authn_sound H). Qed.

  Lemma authn_node :
    refuses = false -> rn = true -> In node uris.
  Proof. intros H. apply (authn_sound H). Qed.
End Refusal.
