(** TCPCL endpoint model: the channel property with its sender-side hypotheses
    discharged -- what one endpoint has handled is a prefix of what the other
    has sent, given only the network hypothesis and bounds on the inputs. *)
From Coq Require Import NArith List Bool.
From DTN Require Import Lib.Bytes Model.TcpclMsg Model.TcpclSess Proofs.TcpclSessBasics
  Proofs.TcpclSentProofs5 Proofs.TcpclSentProofs7 Proofs.TcpclSentProofs11 Proofs.TcpclSentProofs15.
From DTN Require Proofs.TcpclChannelProofs.
Import ListNotations.
Local Open Scope N_scope.

(** The network delivers to B a prefix of the octets A wrote to its socket
    ([TcpclChannelProofs.received]: the octets of the reads of B that take
    effect).  Then B has handled a prefix of the frames A sent. *)
Theorem channel_closed cA opsA cB opsB :
  (exists rest, wire (run cA opsA) = TcpclChannelProofs.received (init cB) opsB ++ rest) ->
  cfg_ok cA -> Forall op_ok opsA ->
  1 + N.of_nat (length opsA) <= 2^64 -> N.of_nat (rx_total opsA) < 2^64 ->
  exists more, sent (run cA opsA) = handled (run cB opsB) ++ more.
Proof.
  intros Hnet Hc Hops Hl Hr.
  apply (TcpclChannelProofs.channel cA opsA cB opsB Hnet).
  - apply (sent_accounting cA opsA).
  - apply sent_wf; assumption.
  - apply (contact_first_map cA opsA).
Qed.

(** The composition for an active endpoint A and a passive endpoint B: both
    send a prefix of a legal sequence (grammar without the clause on START
    segments after SESS_TERM; with it under the segment-size guard, see
    [C04_pair_partial]). *)
Theorem C04_pair_closed cA opsA cB opsB :
  c_passive cA = false -> c_passive cB = true ->
  (exists rest, wire (run cA opsA) = TcpclChannelProofs.received (init cB) opsB ++ rest) ->
  cfg_ok cA -> Forall op_ok opsA ->
  1 + N.of_nat (length opsA) <= 2^64 -> N.of_nat (rx_total opsA) < 2^64 ->
  legal_prefix_weak (sent (run cA opsA)) = true /\ legal_prefix_weak (sent (run cB opsB)) = true.
Proof.
  intros Ha Hb Hnet Hc Hops Hl Hr. apply C04_pair_weak; [exact Ha|exact Hb|].
  apply channel_closed; assumption.
Qed.
