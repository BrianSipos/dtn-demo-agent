(** Tie between the endpoint model's handling of XFER_SEGMENT and the function
    that translate/targets/tcpclhandlers.py regenerates from
    ContactHandler.recv_xfer_data (with the Messenger base guard, _rx_setup and
    _rx_teardown) of tcpcl/session.py on every run.  The octet string of the
    segment is represented by its length in the abstract handler state.
    Nothing is said of [h_pend_start], [h_tx_tmp] and the three switches. *)
From Coq Require Import NArith List Bool.
From RecordUpdate Require Import RecordSet.
From DTN Require Import Lib.Bytes Model.TcpclMsg Model.TcpclSess Model.TcpclHandlerSt Gen.TcpclHandlers
  Proofs.TcpclSessSpec Proofs.TcpclHandlerTie.
Import ListNotations RecordSetNotations.
Local Open Scope N_scope.

(** [_rx_map] as [habs] has it: a received bundle by its length. *)
Definition rabs (l : list (N * bytes)) : list (N * N) := map (fun it => (fst it, N.of_nat (length (snd it)))) l.

Lemma rabs_dict_set k a l : dict_set k (N.of_nat (length a)) (rabs l) = rabs (dict_set k a l).
Proof.
  induction l as [|[k' v] l IH]; [reflexivity|]. cbn [rabs map fst snd dict_set]. fold (rabs l).
  destruct (k' =? k); [reflexivity|]. cbn [map fst snd]. fold (rabs (dict_set k a l)). rewrite IH. reflexivity.
Qed.

Definition rx_tie (s : ep) (g : hst * option N) (r : ep * outcome) : Prop :=
  snd g = outcome_code (snd r)
  /\ h_in_sess (fst g) = in_sess (fst r) /\ h_in_conn (fst g) = in_conn (fst r)
  /\ h_rx_tmp (fst g) = match rx_tmp (fst r) with Some (i, a) => Some (i, N.of_nat (length a)) | None => None end
  /\ h_rx_map (fst g) = rabs (rx_map (fst r))
  /\ sent (fst r) = sent s ++ map FMsg (h_sent (fst g))
  /\ h_tx_map (fst g) = tx_map (fst r) /\ h_pend_ack (fst g) = pend_ack (fst r)
  /\ h_tx_len (fst g) = tx_len (fst r) /\ h_pq (fst g) = pq_set (fst r)
  /\ ev_plain s (fst g) (fst r)
  /\ (h_check (fst g) = false -> closed (fst r) = closed s).

(** As [hm_tie]; the handler counts octets where the model appends them. *)
Lemma hm_tie_data m s r : hm_spec m s r ->
  match m with
  | MXferSeg fl xid ext data => rx_tie s (gen_recv_xfer_data xid fl (N.of_nat (length data)) 0 (habs s)) r
  | _ => True
  end.
Proof.
  destruct 1; try exact I; unfold gen_recv_xfer_data, seg_result; cbv zeta; h_cbn;
    rw_hyps; cbn [rx_is rx_id rx_len rx_write]; rw_hyps;
    try match goal with E : (?cur =? _) = true |- _ => apply N.eqb_eq in E; subst cur end;
    rewrite ?N.add_0_l, <- ?Nat2N.inj_add, <- ?app_length;
    try destruct (has_end flags); unfold rx_tie; h_cbn; ep_cbn; fold (rabs (rx_map s));
    repeat apply conj; first [tie_leaf | symmetry; apply app_nil_r | apply rabs_dict_set].
Qed.

Theorem tie_xfer_data s fl xid ext data :
  let g := gen_recv_xfer_data xid fl (N.of_nat (length data)) 0 (habs s) in
  let r := handle_msg (MXferSeg fl xid ext data) s in
  snd g = outcome_code (snd r)
  /\ h_in_sess (fst g) = in_sess (fst r) /\ h_in_conn (fst g) = in_conn (fst r)
  /\ h_rx_tmp (fst g) = match rx_tmp (fst r) with Some (i, a) => Some (i, N.of_nat (length a)) | None => None end
  /\ h_rx_map (fst g) = map (fun it => (fst it, N.of_nat (length (snd it)))) (rx_map (fst r))
  /\ sent (fst r) = sent s ++ map FMsg (h_sent (fst g))
  /\ h_tx_map (fst g) = tx_map (fst r) /\ h_pend_ack (fst g) = pend_ack (fst r)
  /\ h_tx_len (fst g) = tx_len (fst r) /\ h_pq (fst g) = pq_set (fst r)
  /\ (exists tail, trace (fst r) = trace s ++ h_events (fst g) ++ tail
                   /\ (tail = [] \/ (tail = [EClosed] /\ h_check (fst g) = true)))
  /\ (h_check (fst g) = false -> closed (fst r) = closed s).
Proof. exact (hm_tie_data _ _ _ (handle_msg_spec (MXferSeg fl xid ext data) s)). Qed.
