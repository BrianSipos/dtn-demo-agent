(** The receiver of the BTP-U model: a transfer whose segments arrive each
    exactly once, in any order, is queued exactly once with the original
    data, and nothing is queued before the last segment has arrived. *)
From Coq Require Import NArith List Bool Lia PeanoNat Permutation Sorted.
From DTN Require Import Lib.Bytes Model.Btpu Proofs.AssocUpdate Proofs.BtpuProofs Proofs.BtpuSendProofs.
From DTN Require Lib.IvlProofs.
Import ListNotations.
Local Open Scope N_scope.

Definition idx_lt (a b : N * bytes) : Prop := fst a < fst b.

Lemma seg_mem_spec i l : seg_mem i l = true <-> In i (map fst l).
Proof.
  unfold seg_mem. rewrite existsb_exists, in_map_iff. split.
  - intros [p [Hp E]]. exists p. split; [lia|exact Hp].
  - intros [p [E Hp]]. exists p. split; [exact Hp|lia].
Qed.

Lemma seg_ins_perm i d l : Permutation (seg_ins i d l) ((i, d) :: l).
Proof.
  induction l as [|[j e] t IH]; cbn [seg_ins]; [reflexivity|].
  destruct (i <? j); [reflexivity|].
  transitivity ((j, e) :: (i, d) :: t); [apply perm_skip, IH|apply perm_swap].
Qed.

Lemma seg_ins_sorted i d l :
  StronglySorted idx_lt l -> ~ In i (map fst l) -> StronglySorted idx_lt (seg_ins i d l).
Proof.
  induction l as [|[j e] t IH]; intros Hs Hn; cbn [seg_ins].
  - constructor; constructor.
  - inversion Hs as [|? ? Hst Hfa]; subst.
    destruct (N.ltb_spec i j) as [Hlt|Hge].
    + constructor; [exact Hs|]. constructor; [exact Hlt|].
      eapply Forall_impl; [|exact Hfa]. unfold idx_lt. cbn [fst]. intros a Ha. lia.
    + assert (Hij : i <> j) by (intros ->; apply Hn; left; reflexivity).
      constructor.
      * apply IH; [exact Hst|]. intros Hin. apply Hn. right. exact Hin.
      * eapply Permutation_Forall; [symmetry; apply seg_ins_perm|].
        constructor; [unfold idx_lt; cbn [fst]; lia|exact Hfa].
Qed.

Lemma sorted_perm_eq : forall a b,
  StronglySorted idx_lt a -> StronglySorted idx_lt b -> Permutation a b -> a = b.
Proof.
  induction a as [|x a IH]; intros b Ha Hb Hp.
  - symmetry. apply Permutation_nil. exact Hp.
  - destruct b as [|y b].
    + symmetry in Hp. apply Permutation_nil in Hp. discriminate.
    + inversion Ha as [|? ? Ha' Hfa]; subst. inversion Hb as [|? ? Hb' Hfb]; subst.
      assert (Hxy : x = y).
      { assert (Hx : In x (y :: b)) by (eapply Permutation_in; [exact Hp|left; reflexivity]).
        assert (Hy : In y (x :: a)) by (eapply Permutation_in; [symmetry; exact Hp|left; reflexivity]).
        destruct Hx as [Hx|Hx]; [congruence|]. destruct Hy as [Hy|Hy]; [congruence|].
        rewrite Forall_forall in Hfa, Hfb. specialize (Hfa _ Hy). specialize (Hfb _ Hx).
        unfold idx_lt in *. lia. }
      subst y. f_equal. apply IH; [exact Ha'|exact Hb'|]. eapply Permutation_cons_inv. exact Hp.
Qed.

Lemma sorted_nodup l : StronglySorted idx_lt l -> NoDup (map fst l).
Proof.
  induction 1 as [|a t Hs IH Hfa]; cbn [map]; constructor; [|exact IH].
  intros Hin. apply in_map_iff in Hin as [b [E Hb]]. rewrite Forall_forall in Hfa.
  specialize (Hfa _ Hb). unfold idx_lt in Hfa. lia.
Qed.

Lemma is_range_length : forall l lo hi, is_range l lo hi = true -> N.of_nat (length l) + lo = hi + 1.
Proof.
  induction l as [|x t IH]; intros lo hi H; cbn [is_range length] in *.
  - apply N.eqb_eq in H. lia.
  - apply andb_true_iff in H as [Hx Ht]. apply IH in Ht. lia.
Qed.

Lemma fst_seg s : fst s = (seg_idx s, seg_data s).
Proof. destruct s as [[i d] b]. reflexivity. Qed.

Lemma map_fst_fst l : map fst (map fst l) = map seg_idx l.
Proof. rewrite map_map. reflexivity. Qed.

Lemma map_snd_fst l : map snd (map fst l) = map seg_data l.
Proof. rewrite map_map. reflexivity. Qed.

Lemma shape_range : forall l idx hi,
  shape idx l -> is_range (map seg_idx l) idx hi = (idx + N.of_nat (length l) =? hi + 1).
Proof.
  induction l as [|s t IH]; intros idx hi H; cbn [map is_range length]; [f_equal; lia|].
  destruct H as (Hi & _ & _ & Ht). rewrite Hi, N.eqb_refl, (IH _ _ Ht). cbn [andb]. f_equal. lia.
Qed.

Lemma shape_sorted : forall l idx, shape idx l -> StronglySorted idx_lt (map fst l).
Proof.
  induction l as [|s t IH]; intros idx H; [constructor|].
  pose proof H as (Hi & _ & _ & Ht). cbn [map]. constructor; [eapply IH; exact Ht|].
  apply Forall_map. eapply Forall_impl; [|apply (shape_bounds _ _ Ht)]. cbn beta.
  intros a (Ha & _). unfold idx_lt. rewrite !fst_seg. cbn [fst]. lia.
Qed.

Lemma shape_has_last : forall l idx, shape idx l -> existsb seg_last l = negb (is_nil l).
Proof.
  induction l as [|s t IH]; intros idx H; [reflexivity|].
  destruct H as (_ & _ & Hl & Ht). cbn [existsb]. rewrite Hl, (IH _ Ht). destruct t; reflexivity.
Qed.

Section OneTransfer.
  Variable segs : list (N * bytes * bool).
  Hypothesis Hshape : shape 0 segs.

  Let n : N := N.of_nat (length segs).

  (** No entry and the empty entry behave alike ([seg_step] starts from either). *)
  Definition entry_of (cur : option xfer) : xfer :=
    match cur with Some x => x | None => mkXfer None [] end.

  (** [cur] is what the receiver holds after exactly the segments [l1]. *)
  Definition Rep (l1 : list (N * bytes * bool)) (cur : option xfer) : Prop :=
    StronglySorted idx_lt (x_segs (entry_of cur))
    /\ Permutation (x_segs (entry_of cur)) (map fst l1)
    /\ x_end (entry_of cur) = if existsb seg_last l1 then Some (n - 1) else None.

  Lemma Rep_init : Rep [] None.
  Proof. unfold Rep, entry_of. cbn. repeat split; constructor. Qed.

  Lemma segs_nodup : NoDup (map seg_idx segs).
  Proof. rewrite <- map_fst_fst. apply sorted_nodup. eapply shape_sorted. exact Hshape. Qed.

  Lemma seg_facts s : In s segs ->
    seg_idx s < n /\ seg_data s <> [] /\ seg_last s = (seg_idx s + 1 =? n).
  Proof.
    intros Hin. pose proof (shape_bounds _ _ Hshape) as Hb. rewrite Forall_forall in Hb.
    destruct (Hb _ Hin) as (H1 & H2 & H3). unfold n. rewrite H3. repeat split; try assumption; lia.
  Qed.

  Hypothesis Hge2 : (2 <= length segs)%nat.

  (** A segment not taken in before: the step in terms of what [Rep] tracks. *)
  Lemma step_new l1 s rest cur :
    Permutation (l1 ++ s :: rest) segs -> Rep l1 cur ->
    exists sg, StronglySorted idx_lt sg /\ Permutation sg (map fst (l1 ++ [s]))
      /\ seg_step cur (seg_last s) (seg_idx s) (seg_data s)
         = if existsb seg_last (l1 ++ [s])
           then if is_range (map fst sg) 0 (n - 1) then (None, Some (concat (map snd sg)))
                else (Some (mkXfer (Some (n - 1)) sg), None)
           else (Some (mkXfer None sg), None).
  Proof.
    intros Hp (Hs & Hperm & Hend).
    pose proof (Permutation_in _ Hp (in_elt s l1 rest)) as Hin.
    destruct (seg_facts s Hin) as (Hlt & Hd & Hlast).
    assert (Hnot : ~ In (seg_idx s) (map fst (x_segs (entry_of cur)))).
    { intros Hi. apply (Permutation_in _ (Permutation_map fst Hperm)) in Hi. rewrite map_fst_fst in Hi.
      pose proof (Permutation_NoDup (Permutation_sym (Permutation_map seg_idx Hp)) segs_nodup) as Hnd.
      rewrite map_app in Hnd. cbn [map] in Hnd. apply NoDup_remove_2 in Hnd. apply Hnd.
      apply in_or_app. left. exact Hi. }
    exists (seg_ins (seg_idx s) (seg_data s) (x_segs (entry_of cur))). split; [|split].
    - apply seg_ins_sorted; assumption.
    - rewrite map_app. cbn [map]. rewrite fst_seg.
      etransitivity; [apply seg_ins_perm|]. etransitivity; [|apply Permutation_cons_append].
      apply perm_skip. exact Hperm.
    - unfold seg_step. fold (entry_of cur).
      replace (seg_mem _ _) with false by (symmetry; apply not_true_is_false; rewrite seg_mem_spec; exact Hnot).
      rewrite existsb_app, Hend. cbn [existsb]. rewrite orb_false_r.
      destruct (seg_last s); [rewrite orb_true_r; replace (seg_idx s) with (n - 1) by lia|rewrite orb_false_r].
      all: destruct (existsb seg_last l1); try reflexivity.
      all: replace (n - 1 =? 0) with false by (unfold n; lia); reflexivity.
  Qed.

  Lemma step_nonfinal l1 s rest cur :
    Permutation (l1 ++ s :: rest) segs -> rest <> [] -> Rep l1 cur ->
    exists x', seg_step cur (seg_last s) (seg_idx s) (seg_data s) = (Some x', None)
               /\ Rep (l1 ++ [s]) (Some x').
  Proof.
    intros Hp Hrest HR. destruct (step_new l1 s rest cur Hp HR) as (sg & Hsorted & Hperm & ->).
    (* too few indices for a range *)
    replace (is_range (map fst sg) 0 (n - 1)) with false.
    - destruct (existsb seg_last (l1 ++ [s])) eqn:El; eexists; (split; [reflexivity|]);
        unfold Rep, entry_of; rewrite El; repeat split; assumption.
    - symmetry. apply not_true_is_false. intros Er. apply is_range_length in Er.
      apply Permutation_length in Hperm, Hp. rewrite !map_length, !app_length in *.
      destruct rest; [congruence|]. cbn [length] in *. unfold n in Er. lia.
  Qed.

  Lemma step_final l1 s cur :
    Permutation (l1 ++ [s]) segs -> Rep l1 cur ->
    seg_step cur (seg_last s) (seg_idx s) (seg_data s) = (None, Some (concat (map seg_data segs))).
  Proof.
    intros Hp HR. destruct (step_new l1 s [] cur Hp HR) as (sg & Hsorted & Hperm & ->).
    assert (Hsg : sg = map fst segs).
    { apply sorted_perm_eq; [exact Hsorted|eapply shape_sorted; exact Hshape|].
      etransitivity; [exact Hperm|]. apply Permutation_map. exact Hp. }
    rewrite Hsg, map_fst_fst, map_snd_fst, (shape_range _ _ _ Hshape).
    rewrite (IvlProofs.existsb_perm seg_last _ _ Hp), (shape_has_last _ _ Hshape).
    replace (is_nil segs) with false by (symmetry; apply is_nil_false; intros E; rewrite E in Hge2; cbn in Hge2; lia).
    replace (0 + N.of_nat (length segs) =? n - 1 + 1) with true by (unfold n; lia). reflexivity.
  Qed.
End OneTransfer.

Lemma opt_eqb_eq a b : opt_eqb a b = true <-> a = b.
Proof.
  destruct a, b; cbn; rewrite ?N.eqb_eq; split; intros H; try discriminate; try reflexivity; congruence.
Qed.

Lemma chan_eqb_eq a b : chan_eqb a b = true <-> a = b.
Proof.
  unfold chan_eqb. rewrite !andb_true_iff, !N.eqb_eq, opt_eqb_eq. destruct a, b. cbn.
  split; [intros [[[-> ->] ->] ->]; reflexivity|intros H; inversion H; auto].
Qed.

Lemma key_eqb_eq a b : key_eqb a b = true <-> a = b.
Proof.
  unfold key_eqb. rewrite andb_true_iff, N.eqb_eq, chan_eqb_eq. destruct a, b. cbn [fst snd].
  split; [intros [-> ->]; reflexivity|intros H; inversion H; auto].
Qed.

Lemma key_eqb_refl k : key_eqb k k = true.
Proof. apply key_eqb_eq. reflexivity. Qed.

Lemma key_eqb_sym a b : key_eqb a b = key_eqb b a.
Proof. apply eq_true_iff_eq. rewrite !key_eqb_eq. split; congruence. Qed.

Lemma plookup_update k o l k' :
  plookup k' (match o with Some v => pset k v l | None => pdel k l end)
  = if key_eqb k' k then o else plookup k' l.
Proof. apply (get_update _ _ key_eqb key_eqb_eq plookup pset pdel); reflexivity. Qed.

Lemma recv_seg_some conv st b x i d x' :
  d <> [] -> seg_step (plookup (conv, x) (r_prog st)) b i d = (Some x', None) ->
  let st' := fst (recv_seg conv st b x i d) in
  plookup (conv, x) (r_prog st') = Some x' /\ r_queue st' = r_queue st
  /\ r_next st' = r_next st /\ r_signals st' = r_signals st.
Proof.
  intros Hd Hs. unfold recv_seg. destruct d as [|d0 dt]; [congruence|].
  rewrite Hs. cbn [fst r_prog r_queue r_next r_signals].
  rewrite (plookup_update _ (Some x')), key_eqb_refl. repeat split; reflexivity.
Qed.

Lemma recv_seg_done conv st b x i d o full :
  d <> [] -> seg_step (plookup (conv, x) (r_prog st)) b i d = (o, Some full) ->
  let st' := fst (recv_seg conv st b x i d) in
  plookup (conv, x) (r_prog st') = None
  /\ r_queue st' = r_queue st ++ [(r_next st, full)]
  /\ r_next st' = r_next st + 1
  /\ r_signals st' = r_signals st ++ [(r_next st, blen full, c_peer conv)].
Proof.
  intros Hd Hs. unfold recv_seg. destruct d as [|d0 dt]; [congruence|].
  rewrite Hs. unfold add_rx. destruct o; cbn [fst r_prog r_queue r_next r_signals];
    rewrite (plookup_update _ None), key_eqb_refl; repeat split; reflexivity.
Qed.

Lemma recv_frame_seg hs xid conv st s :
  seg_encodable hs xid s ->
  recv_frame conv st (seg_frame hs xid s)
  = fst (recv_seg conv st (seg_last s) xid (seg_idx s) (seg_data s)).
Proof.
  intros He. destruct (seg_frame_decode hs xid s He) as [Hd Hv].
  unfold recv_frame, recv_frame_r. rewrite Hd. cbn [f_msgs recv_msgs]. unfold recv_msg. rewrite Hv.
  destruct (seg_last s);
    destruct (recv_seg conv st _ xid (seg_idx s) (seg_data s)) as [st' [|]]; reflexivity.
Qed.

Lemma fold_left_map {A B C} (g : A -> C -> A) (f : B -> C) l : forall a,
  fold_left g (map f l) a = fold_left (fun s x => g s (f x)) l a.
Proof. induction l as [|x t IH]; intros a; [reflexivity|]. cbn [map fold_left]. apply IH. Qed.

Section Reassembly.
  Variables (hs : list hint) (xid : N) (conv : chan) (st : rx).
  Variable segs : list (N * bytes * bool).
  Hypothesis Hshape : shape 0 segs.
  Hypothesis Hge2 : (2 <= length segs)%nat.
  Hypothesis Henc : Forall (seg_encodable hs xid) segs.
  Hypothesis Hfresh : plookup (conv, xid) (r_prog st) = None.

  Let recv_one (s : rx) (it : N * bytes * bool) : rx := recv_frame conv s (seg_frame hs xid it).

  (** After exactly the segments [l1] of the transfer: its entry represents
      them, nothing has been queued or signalled. *)
  Definition RInv (l1 : list (N * bytes * bool)) (s : rx) : Prop :=
    Rep segs l1 (plookup (conv, xid) (r_prog s))
    /\ r_queue s = r_queue st /\ r_next s = r_next st /\ r_signals s = r_signals st.

  Lemma recv_one_seg s0 l1 s rest :
    Permutation (l1 ++ s :: rest) segs ->
    seg_data s <> [] /\ recv_one s0 s = fst (recv_seg conv s0 (seg_last s) xid (seg_idx s) (seg_data s)).
  Proof.
    intros Hp. pose proof (Permutation_in _ Hp (in_elt s l1 rest)) as Hin. split; [apply (seg_facts segs Hshape s Hin)|].
    rewrite Forall_forall in Henc. apply recv_frame_seg, Henc, Hin.
  Qed.

  Lemma prefix_inv : forall l1 rest,
    Permutation (l1 ++ rest) segs -> rest <> [] -> RInv l1 (fold_left recv_one l1 st).
  Proof.
    induction l1 as [|s l1 IH] using rev_ind; intros rest Hp Hrest.
    - cbn [fold_left]. unfold RInv. rewrite Hfresh. split; [apply Rep_init|repeat split; reflexivity].
    - rewrite <- app_assoc in Hp. cbn [app] in Hp.
      rewrite fold_left_app. cbn [fold_left].
      destruct (IH (s :: rest) Hp ltac:(congruence)) as (HR & Hq & Hn & Hsg).
      destruct (recv_one_seg (fold_left recv_one l1 st) _ _ _ Hp) as (Hd & ->).
      destruct (step_nonfinal segs Hshape Hge2 l1 s rest _ Hp Hrest HR) as (x' & Hstep & HR').
      destruct (recv_seg_some conv _ _ xid _ _ x' Hd Hstep) as (H1 & H2 & H3 & H4).
      unfold RInv. rewrite H1, H2, H3, H4. split; [exact HR'|]. repeat split; assumption.
  Qed.

  Theorem reassembly_segs l :
    Permutation l segs ->
    let fin := fold_left recv_one l st in
    r_queue fin = r_queue st ++ [(r_next st, concat (map seg_data segs))]
    /\ r_signals fin = r_signals st ++ [(r_next st, blen (concat (map seg_data segs)), c_peer conv)]
    /\ plookup (conv, xid) (r_prog fin) = None
    /\ (forall l1 l2, l = l1 ++ l2 -> l2 <> [] ->
          r_queue (fold_left recv_one l1 st) = r_queue st /\ r_signals (fold_left recv_one l1 st) = r_signals st).
  Proof.
    intros Hp. cbn zeta.
    assert (Hne : l <> []).
    { intros E. subst l. apply Permutation_length in Hp. cbn [length] in Hp. lia. }
    destruct (exists_last Hne) as (l1 & s & El). subst l.
    rewrite fold_left_app. cbn [fold_left].
    destruct (prefix_inv l1 [s] Hp ltac:(congruence)) as (HR & Hq & Hn & Hsg).
    destruct (recv_one_seg (fold_left recv_one l1 st) _ _ _ Hp) as (Hd & ->).
    pose proof (step_final segs Hshape Hge2 l1 s _ Hp HR) as Hstep.
    destruct (recv_seg_done conv _ _ xid _ _ _ _ Hd Hstep) as (H1 & H2 & _ & H4).
    rewrite H1, H2, H4, Hq, Hn, Hsg.
    split; [reflexivity|]. split; [reflexivity|]. split; [reflexivity|].
    intros l1' l2 E Hl2. rewrite E in Hp. destruct (prefix_inv l1' l2 Hp Hl2) as (_ & Hq' & _ & Hs'). split; assumption.
  Qed.
End Reassembly.

Definition xfer_ok (hs : list hint) (mtu xid : N) (data : bytes) : Prop :=
  mtu_feasible_h hs mtu = true /\ fits (Some mtu) (blen data) = false
  /\ Forall wf_hint hs /\ (length hs <= MAX_LIST)%nat
  /\ xid < 4294967296 /\ blen data < 4294967296 /\ wf_bytes data /\ mtu < LEN_MOD + 4.

Lemma xfer_okb_spec hs mtu xid data : xfer_okb hs mtu xid data = true <-> xfer_ok hs mtu xid data.
Proof.
  unfold xfer_okb, xfer_ok.
  rewrite !andb_true_iff, !N.ltb_lt, Nat.leb_le, wf_bytesb_spec, negb_true_iff, wf_hintsb_spec. tauto.
Qed.

Lemma segments_encodable hs mtu xid data :
  xfer_ok hs mtu xid data -> Forall (seg_encodable hs xid) (segments hs mtu data).
Proof.
  intros (Hm & Hf & Hh & Hn & Hx & Hl & Hw & Hmtu).
  destruct (segments_spec hs mtu data Hm) as (Hsh & Hcat & Hdl & Hlen).
  pose proof (shape_bounds _ _ Hsh) as Hb.
  assert (Hdw : Forall (fun s => wf_bytes (seg_data s)) (segments hs mtu data))
    by (apply Forall_map, Forall_concat; rewrite Hcat; exact Hw).
  rewrite Forall_forall in *. intros s Hs.
  destruct (Hb s Hs) as ((_ & Hi) & _). specialize (Hdl s Hs). specialize (Hdw s Hs).
  unfold seg_encodable. repeat split; try assumption.
  - apply Forall_forall. exact Hh.
  - unfold blen in Hl. lia.
  - unfold remain_size, head_len, mtu_feasible_h, head_len, LEN_MOD, blen in *. apply N.ltb_lt in Hm. lia.
Qed.

Theorem reassembly_h hs mtu xid conv st data p :
  xfer_okb hs mtu xid data = true ->
  plookup (conv, xid) (r_prog st) = None ->
  Permutation p (send_transfer_h hs (Some mtu) xid data) ->
  let fin := fold_left (recv_frame conv) p st in
  r_queue fin = r_queue st ++ [(r_next st, data)]
  /\ r_signals fin = r_signals st ++ [(r_next st, blen data, c_peer conv)]
  /\ plookup (conv, xid) (r_prog fin) = None
  /\ (forall p1 p2, p = p1 ++ p2 -> p2 <> [] ->
        r_queue (fold_left (recv_frame conv) p1 st) = r_queue st
        /\ r_signals (fold_left (recv_frame conv) p1 st) = r_signals st).
Proof.
  intros Hok Hfresh Hp. apply xfer_okb_spec in Hok. pose proof Hok as (Hm & Hf & _).
  unfold send_transfer_h in Hp. rewrite Hf in Hp.
  apply Permutation_map_inv in Hp as (l & El & Hpl). subst p. apply Permutation_sym in Hpl.
  destruct (segments_spec hs mtu data Hm) as (Hsh & Hcat & _).
  pose proof (reassembly_segs hs xid conv st (segments hs mtu data) Hsh (segments_ge2 hs mtu data Hm Hf)
                (segments_encodable hs mtu xid data Hok) Hfresh l Hpl) as R.
  cbn zeta in R. rewrite Hcat in R.
  destruct R as (R1 & R2 & R4 & R5). cbn zeta.
  rewrite !fold_left_map.
  split; [exact R1|]. split; [exact R2|]. split; [exact R4|].
  intros p1 p2 E Hne. apply map_eq_app in E as (l1 & l2 & El & E1 & E2). subst p1 p2.
  rewrite fold_left_map. apply (R5 l1 l2 El). intros ->. apply Hne. reflexivity.
Qed.
