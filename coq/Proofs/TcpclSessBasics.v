(** Basic facts about the endpoint model [Model/TcpclSess.v] shared by the
    TCPCL property proofs: induction over operation lists, closed endpoints,
    traces that only grow ([ext_by], [run_events]), what kind of frame the
    parser returns, and the dictionaries of the transfer layer. *)
From Coq Require Import List NArith Bool PeanoNat.
From RecordUpdate Require Import RecordSet.
From DTN Require Import Lib.Bytes Model.TcpclMsg Model.TcpclSess.
Import ListNotations RecordSetNotations.
Local Open Scope N_scope.

Lemma run_app c ops1 ops2 : run c (ops1 ++ ops2) = fold_left step ops2 (run c ops1).
Proof. unfold run. apply fold_left_app. Qed.

Lemma run_snoc c ops o : run c (ops ++ [o]) = step (run c ops) o.
Proof. rewrite run_app. reflexivity. Qed.

(** Every state reached from [s0] satisfies an invariant that holds of [s0]
    and is preserved by every operation. *)
Theorem run_invariant_from (P : ep -> Prop) s0 :
  P s0 -> (forall s o, P s -> P (step s o)) -> forall ops, P (fold_left step ops s0).
Proof.
  intros H0 Hstep ops. revert s0 H0.
  induction ops as [|o ops IH]; intros s Hs; cbn [fold_left]; [exact Hs|]. apply IH, Hstep, Hs.
Qed.

Theorem run_invariant (P : ep -> Prop) c :
  P (init c) -> (forall s o, P s -> P (step s o)) -> forall ops, P (run c ops).
Proof. apply run_invariant_from. Qed.

(** A closed endpoint only sees the clock move. *)
Lemma step_closed s o : closed s = true ->
  step s o = match o with OAdvance dt => s <| now := now s + dt |> | _ => s end.
Proof. intros H. destruct o; cbn [step]; rewrite ?H; reflexivity. Qed.

Lemma cf_step s o : cf (step s o) = cf s -> True.
Proof. trivial. Qed.

(** * Trace extensions *)

(** [T'] is [T] followed by events that all satisfy [Pe], whatever the
    conditions they are appended under. *)
Definition ext_tr (Pe : event -> Prop) (T T' : list event) : Prop :=
  exists evs, T' = T ++ evs /\ Forall Pe evs.

Lemma et_refl Pe T : ext_tr Pe T T.
Proof. exists []. split; [symmetry; apply app_nil_r|constructor]. Qed.
Lemma et_app Pe T T' evs : ext_tr Pe T T' -> Forall Pe evs -> ext_tr Pe T (T' ++ evs).
Proof.
  intros (l & -> & F) H. exists (l ++ evs). split; [symmetry; apply app_assoc|]. apply Forall_app. split; assumption.
Qed.
Lemma et_if Pe T (c : bool) a b : ext_tr Pe T a -> ext_tr Pe T b -> ext_tr Pe T (if c then a else b).
Proof. destruct c; auto. Qed.

(** Goal [ext_tr Pe T T'], [T'] computed: follow its shape; [tac] shows [Pe] of
    an event or [Forall Pe] of a piece that is not a literal list. *)
Ltac ext_shape tac :=
  repeat first [ apply et_refl | apply et_if
               | apply et_app; [|repeat first [apply Forall_nil | apply Forall_cons | tac]] ].

(** [s'] has the trace of [s] followed by events that all satisfy [Pe]. *)
Definition ext_by (Pe : event -> Prop) (s s' : ep) : Prop := ext_tr Pe (trace s) (trace s').

Lemma ext_refl Pe s : ext_by Pe s s.
Proof. exists []. split; [symmetry; apply app_nil_r|constructor]. Qed.

Lemma ext_trans Pe s1 s2 s3 : ext_by Pe s1 s2 -> ext_by Pe s2 s3 -> ext_by Pe s1 s3.
Proof.
  intros [a [Ha Fa]] [b [Hb Fb]]. exists (a ++ b). split.
  - rewrite Hb, Ha, app_assoc. reflexivity.
  - apply Forall_app. split; assumption.
Qed.

Lemma ext_same Pe s s' : trace s' = trace s -> ext_by Pe s s'.
Proof. intros H. exists []. split; [rewrite app_nil_r; exact H|constructor]. Qed.

Lemma ext_mono (P Q : event -> Prop) s s' : (forall e, P e -> Q e) -> ext_by P s s' -> ext_by Q s s'.
Proof. intros H [l [E F]]. exists l. split; [exact E|]. eapply Forall_impl; eassumption. Qed.

(** * Parsing facts *)
Lemma parse_frame_msg b l m r : parse_frame b l = Some (FMsg m, r) -> b = true.
Proof.
  unfold parse_frame. destruct b; [reflexivity|].
  destruct (parse_contact l) as [[c r']|]; discriminate.
Qed.

Lemma parse_frame_contact b l c r : parse_frame b l = Some (FContact c, r) -> b = false.
Proof.
  unfold parse_frame. destruct b; [|reflexivity].
  destruct (parse_msg l) as [[c' r']|]; discriminate.
Qed.

(** * Dictionaries

    The model's association lists ([dict_get], [dict_set], [dict_del]) and the
    id lists that go with them ([mem_N], [remove_N]). *)

Lemma mem_N_In x l : mem_N x l = true <-> In x l.
Proof.
  unfold mem_N. rewrite existsb_exists. split.
  - intros [y [Hy E]]. apply N.eqb_eq in E. subst. exact Hy.
  - intros H. exists x. split; [exact H|apply N.eqb_refl].
Qed.

Lemma remove_N_notin x l : ~ In x l -> remove_N x l = l.
Proof.
  induction l as [|y l IH]; cbn [remove_N In]; intros H; [reflexivity|].
  destruct (N.eqb_spec y x) as [->|]; [exfalso; apply H; left; reflexivity|].
  rewrite IH; [reflexivity|]. intros Hin. apply H. right. exact Hin.
Qed.

Lemma In_remove_N x k l : In x (remove_N k l) -> In x l.
Proof.
  induction l as [|y l IH]; cbn [remove_N In]; [tauto|].
  destruct (y =? k); [tauto|]. cbn [In]. tauto.
Qed.

Lemma NoDup_snoc {A} (l : list A) x : NoDup l -> ~ In x l -> NoDup (l ++ [x]).
Proof.
  induction l as [|a l IH]; cbn [app]; intros H Hx.
  - constructor; [intros []|constructor].
  - inversion H as [|? ? Ha Hl]; subst. constructor.
    + rewrite in_app_iff. cbn [In]. intros [H1|[H1|[]]]; [exact (Ha H1)|]. apply Hx. left. symmetry. exact H1.
    + apply IH; [exact Hl|]. intros H1. apply Hx. right. exact H1.
Qed.

Lemma dict_get_key {V} k (m : list (N * V)) v : dict_get k m = Some v -> In k (map fst m).
Proof.
  induction m as [|[k' v'] m IH]; cbn [dict_get map fst In]; [discriminate|].
  destruct (N.eqb_spec k' k) as [->|]; [left; reflexivity|right; auto].
Qed.

Lemma dict_get_none_keys {V} k (d : list (N * V)) : dict_get k d = None <-> ~ In k (map fst d).
Proof.
  induction d as [|[a b] d IH]; cbn [dict_get map fst In]; [tauto|].
  destruct (N.eqb_spec a k) as [E|E].
  - split; [discriminate|]. intros H. exfalso. apply H. left. exact E.
  - rewrite IH. tauto.
Qed.

Lemma dict_get_Forall {V} (P : N * V -> Prop) k d v : Forall P d -> dict_get k d = Some v -> P (k, v).
Proof.
  induction d as [|[k' v'] d IH]; cbn [dict_get]; intros F H; [discriminate|].
  inversion F; subst. destruct (N.eqb_spec k' k) as [->|].
  - injection H as <-. assumption.
  - auto.
Qed.

Lemma dict_set_Forall {V} (P : N * V -> Prop) k v d : P (k, v) -> Forall P d -> Forall P (dict_set k v d).
Proof.
  intros Hv. induction d as [|[k' v'] d IH]; cbn [dict_set]; intros F.
  - constructor; [exact Hv|constructor].
  - inversion F; subst. destruct (k' =? k); constructor; auto.
Qed.

Lemma dict_del_Forall {V} (P : N * V -> Prop) k d : Forall P d -> Forall P (dict_del k d).
Proof.
  induction d as [|[k' v'] d IH]; cbn [dict_del]; intros F; [constructor|].
  inversion F; subst. destruct (k' =? k); [assumption|constructor; auto].
Qed.

Lemma dict_del_length {V} k (d : list (N * V)) : (length (dict_del k d) <= length d)%nat.
Proof.
  induction d as [|[k' v] d IH]; [apply le_n|]. cbn [dict_del]. destruct (k' =? k); cbn [length];
    [apply Nat.le_succ_diag_r|apply le_n_S, IH].
Qed.

(** The keys after an update: a new key goes to the end. *)
Lemma keys_dict_set {V} k (v : V) m :
  map fst (dict_set k v m) = if mem_N k (map fst m) then map fst m else map fst m ++ [k].
Proof.
  unfold mem_N. induction m as [|[a b] m IH]; cbn [dict_set map fst existsb app]; [reflexivity|].
  rewrite (N.eqb_sym k a). destruct (N.eqb_spec a k) as [->|E]; cbn [map fst orb]; [reflexivity|].
  rewrite IH. destruct (existsb _ _); reflexivity.
Qed.

Lemma dict_set_keys {V} k (v : V) d x : dict_get k d = Some x -> map fst (dict_set k v d) = map fst d.
Proof.
  intros H. rewrite keys_dict_set. apply dict_get_key, mem_N_In in H. rewrite H. reflexivity.
Qed.

Lemma keys_dict_del {V} x (m : list (N * V)) : map fst (dict_del x m) = remove_N x (map fst m).
Proof.
  induction m as [|[k v] m IH]; cbn [dict_del map fst remove_N]; [reflexivity|].
  destruct (k =? x); cbn [map fst]; [reflexivity|]. rewrite IH. reflexivity.
Qed.

(** * The events of a run

    Every event satisfies [P0] (it was there at the start) or [Pe o] for an
    operation [o] of the run, if each operation only adds such events.  [G] is
    what is assumed of the run, and passes to its prefixes; [I] an invariant
    that may depend on the operations so far. *)
Lemma run_events (G : list op -> Prop) (I : list op -> ep -> Prop)
    (P0 : event -> Prop) (Pe : op -> event -> Prop) s0 :
  I [] s0 -> Forall P0 (trace s0) ->
  (forall pre o, G (pre ++ [o]) -> G pre) ->
  (forall pre o, G (pre ++ [o]) -> let s := fold_left step pre s0 in
     I pre s -> I (pre ++ [o]) (step s o) /\ ext_by (Pe o) s (step s o)) ->
  forall ops, G ops ->
  I ops (fold_left step ops s0)
  /\ Forall (fun e => P0 e \/ exists o, In o ops /\ Pe o e) (trace (fold_left step ops s0)).
Proof.
  intros I0 F0 HG Hs. induction ops as [|o ops IH] using rev_ind; intros Go.
  - split; [exact I0|]. eapply Forall_impl; [|exact F0]. auto.
  - destruct (IH (HG _ _ Go)) as [Io Fo]. rewrite fold_left_app. cbn [fold_left].
    destruct (Hs ops o Go Io) as [I' [evs [E F]]]. split; [exact I'|]. rewrite E.
    apply Forall_app. split; (eapply Forall_impl; [|eassumption]); cbv beta.
    + intros e [H|[o' [Hi H]]]; [left; exact H|]. right. exists o'. rewrite in_app_iff. auto.
    + intros e H. right. exists o. rewrite in_app_iff. cbn [In]. auto.
Qed.
