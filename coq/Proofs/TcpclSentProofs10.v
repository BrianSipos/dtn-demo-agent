(** TCPCL endpoint model: segments respect the peer's segment MRU;
    acknowledgements echo the received segments. *)
From Coq Require Import NArith List Bool PeanoNat Lia.
From RecordUpdate Require Import RecordSet.
From DTN Require Import Lib.Bytes Model.TcpclMsg Model.TcpclSess
  Proofs.TcpclSentProofs2 Proofs.TcpclSentProofs5 Proofs.TcpclSentProofs7 Proofs.TcpclSentProofs9 Proofs.TcpclSessSpec.
Import ListNotations RecordSetNotations.
Local Open Scope N_scope.

Definition noseg (f : frame) : Prop := match f with FMsg (MXferSeg _ _ _ _) => False | _ => True end.
Definition segok (mru : N) (f : frame) : Prop :=
  match f with FMsg (MXferSeg _ _ _ data) => N.of_nat (length data) <= mru | _ => True end.

Lemma noseg_segok mru l : Forall noseg l -> Forall (segok mru) l.
Proof. apply Forall_impl. intros [c|[]]; cbn; auto; contradiction. Qed.

Lemma noseg_out_msg m s : Forall noseg (out_msg m s).
Proof. destruct (out_msg_cases m s); repeat constructor. Qed.

Lemma noseg_out_contact c s : Forall noseg (out_contact c s).
Proof. destruct (out_contact_cases c s); repeat constructor. Qed.

Lemma segok_out_op o s mru : seg_size s <= mru -> Forall (segok mru) (out_op o s).
Proof.
  intros H. destruct (out_op_cases o s) as [| | | |fl id ext d _ Hl _]; repeat constructor.
  cbn [segok]. lia.
Qed.

Lemma noseg_out_op o s : in_sess s = false -> tx_tmp s = None -> Forall noseg (out_op o s).
Proof.
  intros Hs Ht. destruct (out_op_cases o s) as [| | | |fl id ext d _ _ [[Hn _]|(_&Hs'&_)]]; repeat constructor;
    exfalso; congruence.
Qed.

(** Segment size and MRU: before a SESS_INIT is handled the segment size is 0
    and no segment was sent; after the first, size and segments sent are within
    the MRU it announced.  Stated over the values of the fields [MR] reads, so
    that the frame and operation lemmas rewrite each field once. *)
Definition MRb (n : nat) (peer : option sessinit) (sess : bool) (sz : N) (snt : list frame) : Prop :=
  (n = 0%nat -> peer = None)
  /\ (sess = true -> peer <> None)
  /\ (peer = None -> sz = 0 /\ Forall noseg snt)
  /\ (forall p, peer = Some p -> sz <= si_seg_mru p /\ Forall (segok (si_seg_mru p)) snt).

Definition MR (s : ep) : Prop :=
  (ninit (handled s) <= 1)%nat ->
  MRb (ninit (handled s)) (sessinit_peer s) (in_sess s) (seg_size s) (sent s).

Lemma MRb_noseg n peer sess sz snt out :
  MRb n peer sess sz snt -> Forall noseg out -> MRb n peer sess sz (snt ++ out).
Proof.
  intros (M1&M2&M3&M4) Ho. split; [exact M1|]. split; [exact M2|]. split.
  - intros E. destruct (M3 E). split; [assumption|]. apply Forall_app. split; assumption.
  - intros p E. destruct (M4 p E). split; [assumption|]. apply Forall_app. split; [assumption|apply noseg_segok, Ho].
Qed.

Lemma MR_recv_frame fr s rest : MR s ->
  MR (fst (recv_frame fr (s <| rx_buf := rest |> <| handled := handled s ++ [fr] |>))).
Proof.
  unfold MR. rewrite handled_recv_frame. ep_cbn. rewrite ninit_app. intros H Hn.
  assert (Hn0 : (ninit (handled s) <= 1)%nat) by lia. specialize (H Hn0).
  destruct fr as [c|m].
  - rewrite sessinit_peer_recv_contact, in_sess_recv_contact, seg_size_recv_contact, sent_recv_contact. ep_cbn.
    change (ninit [FContact c]) with 0%nat. rewrite Nat.add_0_r. apply MRb_noseg; [exact H|apply noseg_out_contact].
  - rewrite sessinit_peer_recv_msg, in_sess_recv_msg, seg_size_recv_msg, sent_recv_msg. ep_cbn.
    destruct m as [fl xid ext data|fl xid len|r xid| |fl r|a b|ka smru xmru nid ext];
      try (change (ninit [FMsg _]) with 0%nat; rewrite Nat.add_0_r, orb_false_r;
           apply MRb_noseg; [exact H|apply noseg_out_msg]).
    (* the first SESS_INIT: no segment was sent before it *)
    change (ninit [FMsg (MSessInit ka smru xmru nid ext)]) with 1%nat in Hn |- *.
    destruct H as (M1&_&M3&_).
    assert (Hz : ninit (handled s) = 0%nat) by lia. destruct (M3 (M1 Hz)) as [Ez Hs].
    split; [intros; lia|]. split; [intros _; discriminate|]. split; [discriminate|].
    intros p E. inversion E. cbn [si_seg_mru]. split.
    + match goal with |- context [init_ok ?a ?b] => destruct (init_ok a b) end;
        [apply N.le_min_r|rewrite Ez; apply N.le_0_l].
    + apply Forall_app. split; apply noseg_segok; [exact Hs|apply noseg_out_msg].
Qed.

Lemma MR_step_o o s : I2 s -> MR s -> closed s = false -> not_rx o = true -> MR (step s o).
Proof.
  intros (_&F2&_) H Hc Ho. unfold MR.
  rewrite (handled_step_o o s Ho), (sessinit_peer_step_o o s Ho), (in_sess_step_o o s Ho),
    (seg_size_step_o o s Ho), (sent_step o s Hc Ho).
  intros Hn. destruct (H Hn) as (M1&M2&M3&M4). split; [exact M1|]. split; [exact M2|]. split.
  - intros E. destruct (M3 E) as [Ez Hs]. split; [exact Ez|]. apply Forall_app. split; [exact Hs|].
    assert (Es : in_sess s = false).
    { destruct (in_sess s) eqn:Es; [|reflexivity]. elim (M2 eq_refl). exact E. }
    apply noseg_out_op; [exact Es|]. destruct (tx_tmp s) eqn:Et; [|reflexivity].
    rewrite F2 in Es; [discriminate|congruence].
  - intros p E. destruct (M4 p E) as [Hle Hs]. split; [exact Hle|]. apply Forall_app. split; [exact Hs|].
    apply segok_out_op, Hle.
Qed.

Lemma MR_keeps : keeps I2 MR.
Proof.
  constructor; try (intros; assumption).
  - intros s o. apply MR_step_o.
  - intros s fr rest _ H _ _. apply MR_recv_frame, H.
Qed.

Lemma InvM_run c ops : I2 (run c ops) /\ MR (run c ops).
Proof.
  apply (keeps_run _ c (keeps_and _ _ I2_keeps MR_keeps)). split; [apply I2_init|].
  intros _. unfold MRb. cbn. repeat split; try discriminate; try constructor.
Qed.

(** If at most one SESS_INIT was handled, every segment an endpoint sent is within the
    segment MRU it announced. *)
Theorem seg_within_mru c ops : let s := run c ops in
  (length (filter is_initf (handled s)) <= 1)%nat ->
  forall p, sessinit_peer s = Some p ->
  Forall (fun f => match f with FMsg (MXferSeg _ _ _ data) => N.of_nat (length data) <= si_seg_mru p | _ => True end)
         (sent s).
Proof.
  cbv zeta. intros Hn p E. destruct (InvM_run c ops) as (_&H). destruct (H Hn) as (_&_&_&M4).
  exact (proj2 (M4 p E)).
Qed.

(** The receiver rule, replayed over the handled frames: state = (a SESS_INIT
    was handled, current transfer id and octets received for it so far). *)
Definition ack_st := (bool * option (N * N))%type.

Definition ack_len (st : ack_st) (fl xid : N) (data : bytes) : option N :=
  if has_start fl then Some (N.of_nat (length data))
  else match snd st with
       | Some (cur, n) => if cur =? xid then Some (n + N.of_nat (length data)) else None
       | None => None
       end.

Definition ack_step (st : ack_st) (f : frame) : ack_st * list msg :=
  match f with
  | FMsg (MSessInit _ _ _ _ _) => ((true, snd st), [])
  | FMsg (MXferSeg fl xid _ data) =>
      if fst st then
        match ack_len st fl xid data with
        | Some L => ((true, if has_end fl then None else Some (xid, L)), [MXferAck fl xid L])
        | None => (st, [])
        end
      else (st, [])
  | _ => (st, [])
  end.

Definition ack_fold (acc : ack_st * list msg) (f : frame) : ack_st * list msg :=
  let '(st', o) := ack_step (fst acc) f in (st', snd acc ++ o).

Definition ack_run (hs : list frame) : ack_st * list msg := fold_left ack_fold hs ((false, None), []).

(** The acknowledgements an endpoint owes for the frames [hs] it has handled. *)
Definition ack_spec (hs : list frame) : list msg := snd (ack_run hs).

Definition is_ackf (f : frame) : bool := match f with FMsg (MXferAck _ _ _) => true | _ => false end.

Lemma ack_run_snoc hs f : ack_run (hs ++ [f]) = ack_fold (ack_run hs) f.
Proof. unfold ack_run. rewrite fold_left_app. reflexivity. Qed.

Definition rx_view (s : ep) : option (N * N) :=
  match rx_tmp s with Some (i, a) => Some (i, N.of_nat (length a)) | None => None end.

(** The receiver rule replayed over [handled] is where the model is: same
    session flag, same transfer and octet count, same acknowledgements sent. *)
Definition AK (s : ep) : Prop :=
  fst (ack_run (handled s)) = (in_sess s, rx_view s)
  /\ filter is_ackf (sent s) = map FMsg (snd (ack_run (handled s))).

Lemma noack_out_op o s : filter is_ackf (out_op o s) = [].
Proof. destruct (out_op_cases o s); reflexivity. Qed.

Lemma noack_out_contact c s : filter is_ackf (out_contact c s) = [].
Proof. destruct (out_contact_cases c s); reflexivity. Qed.

Lemma noack_out_msg m s : (forall fl xid ext d, m <> MXferSeg fl xid ext d) -> filter is_ackf (out_msg m s) = [].
Proof.
  intros H. destruct (out_msg_cases m s) as [| | |fl xid ext d len E|]; try reflexivity. elim (H _ _ _ _ E).
Qed.

Lemma AK_step_o o s : AK s -> closed s = false -> not_rx o = true -> AK (step s o).
Proof.
  intros [A1 A2] Hc Ho. unfold AK, rx_view.
  rewrite (handled_step_o o s Ho), (in_sess_step_o o s Ho), (rx_tmp_step_o o s Ho), (sent_step o s Hc Ho).
  split; [exact A1|]. rewrite filter_app, noack_out_op, app_nil_r. exact A2.
Qed.

Lemma AK_recv_frame fr s rest : AK s ->
  AK (fst (recv_frame fr (s <| rx_buf := rest |> <| handled := handled s ++ [fr] |>))).
Proof.
  intros [A1 A2]. unfold AK, rx_view. rewrite handled_recv_frame. ep_cbn. rewrite ack_run_snoc.
  unfold ack_fold. destruct (ack_run (handled s)) as [st acks]. cbn [fst snd] in *. subst st. unfold rx_view.
  destruct fr as [c|m].
  - rewrite in_sess_recv_contact, rx_tmp_recv_contact, sent_recv_contact. ep_cbn. cbn [ack_step fst snd].
    rewrite filter_app, noack_out_contact, !app_nil_r. split; [reflexivity|exact A2].
  - rewrite in_sess_recv_msg, rx_tmp_recv_msg, sent_recv_msg. ep_cbn. rewrite filter_app, A2.
    destruct m as [fl xid ext data|fl xid len|r xid| |fl r|a b|ka smru xmru nid ext];
      cbn [ack_step fst snd is_init orb]; rewrite ?orb_false_r, ?orb_true_r;
      try (rewrite noack_out_msg by discriminate; rewrite !app_nil_r; split; reflexivity).
    (* XFER_SEGMENT: the model's acceptance test is the receiver rule *)
    unfold out_msg, seg_acc, ack_len, rx_view. cbn [fst snd]. ep_cbn.
    destruct (in_sess s); [|cbn; rewrite ?app_nil_r; split; reflexivity].
    destruct (has_start fl).
    + destruct (has_end fl); cbn; rewrite map_app; split; reflexivity.
    + destruct (rx_tmp s) as [[cur a]|]; [|cbn; rewrite ?app_nil_r; split; reflexivity].
      destruct (cur =? xid); [|cbn; rewrite ?app_nil_r; split; reflexivity].
      destruct (has_end fl); cbn; rewrite ?app_length, ?Nat2N.inj_add, ?map_app; split; reflexivity.
Qed.

Lemma AK_keeps : keeps AK AK.
Proof.
  constructor; try (intros; assumption).
  - intros s o _. apply AK_step_o.
  - intros s fr rest _ H _ _. apply AK_recv_frame, H.
Qed.

(** Unconditionally (the receive loop stops at close, so nothing is handled
    without being answered): the acknowledgements sent are exactly those owed
    for the handled frames, with the flags octet, the transfer id and the
    cumulative length of each acknowledged segment. *)
Theorem ack_echo c ops : let s := run c ops in
  filter is_ackf (sent s) = map FMsg (ack_spec (handled s)).
Proof.
  cbv zeta. apply (keeps_run AK c AK_keeps). split; reflexivity.
Qed.
