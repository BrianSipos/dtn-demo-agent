(** Tie between the endpoint model's [do_close] and the report loop at the head
    of ContactHandler.close of tcpcl/session.py, regenerated on every run
    (Gen/TcpclClose.v): a close that takes effect reports every transfer that
    was queued but never started -- in queue order, each removed from the
    transmit map, before the connection goes down -- and empties the queue. *)
From Coq Require Import NArith List Bool.
From RecordUpdate Require Import RecordSet.
From DTN Require Import Lib.Bytes Model.TcpclMsg Model.TcpclSess Model.TcpclHandlerSt Gen.TcpclClose
  Proofs.TcpclSessSpec Proofs.TcpclHandlerTie.
Import ListNotations RecordSetNotations.
Local Open Scope N_scope.

Theorem tie_close_reports s : closed s = false ->
  let g := gen_close_flush (habs s) in
  closed (do_close s) = true
  /\ h_pend_start g = map (fun it => (fst it, None)) (pend_start (do_close s))
  /\ h_tx_map g = tx_map (do_close s)
  /\ trace (do_close s) = trace s ++ h_events g ++ [EClosed]
  /\ h_in_sess g = in_sess (do_close s) /\ h_in_conn g = in_conn (do_close s)
  /\ h_pend_ack g = pend_ack (do_close s)
  /\ h_tx_tmp g = match tx_tmp (do_close s) with Some (i, _) => Some i | None => None end
  /\ h_tx_len g = tx_len (do_close s) /\ h_pq g = pq_set (do_close s)
  /\ h_sent g = [] /\ sent (do_close s) = sent s /\ h_check g = false.
Proof.
  intros Hc. unfold gen_close_flush. cbv zeta. change (h_pend_start (habs s)) with (pabs (pend_start s)).
  rewrite (report_fold _ (fun _ _ => eq_refl)), do_close_pr. h_cbn. ep_cbn. rewrite Hc, <- app_assoc.
  repeat split; reflexivity.
Qed.
