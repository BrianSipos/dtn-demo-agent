(** The codec of the BTP-U model (Model/Btpu.v): well-formedness as
    propositions, round trip of hints, messages and frames, declared lengths,
    and the converse: what decodes strictly is the encoding of a well-formed
    frame. *)
From Coq Require Import NArith List Bool Lia PeanoNat.
From DTN Require Import Lib.Bytes Model.Btpu.
Import ListNotations.
Local Open Scope N_scope.

Lemma blen_app a b : blen (a ++ b) = blen a + blen b.
Proof. unfold blen. rewrite app_length. lia. Qed.

Lemma blen_be k n : blen (be k n) = N.of_nat k.
Proof. unfold blen. rewrite be_length. reflexivity. Qed.

Lemma to_nat_blen (x : bytes) : N.to_nat (blen x) = length x.
Proof. apply Nat2N.id. Qed.

Lemma ltb_len_app {A} (x rest : list A) : (length (x ++ rest) <? length x)%nat = false.
Proof. apply Nat.ltb_ge. rewrite app_length. apply Nat.le_add_r. Qed.

Lemma is_nil_true {A} (l : list A) : is_nil l = true <-> l = [].
Proof. destruct l; cbn; split; congruence. Qed.

Lemma is_nil_false {A} (l : list A) : is_nil l = false <-> l <> [].
Proof. destruct l; cbn; split; congruence. Qed.

Definition wf_hint (h : hint) : Prop :=
  h_type h < 128 /\ blen (h_data h) < 256 /\ wf_bytes (h_data h).

Lemma wf_hintb_spec h : wf_hintb h = true <-> wf_hint h.
Proof.
  unfold wf_hintb, wf_hint. rewrite !andb_true_iff, !N.ltb_lt, wf_bytesb_spec. tauto.
Qed.

Definition wf_msg (m : msg) : Prop :=
  m_type m < 256 /\ m_flags m < 16
  /\ (has_h (m_flags m) = negb (is_nil (m_hints m)))
  /\ Forall wf_hint (m_hints m) /\ (length (m_hints m) <= MAX_LIST)%nat
  /\ wf_bytes (m_body m)
  /\ blen (encode_hints (m_hints m)) + blen (m_body m) < LEN_MOD.

Lemma wf_hintsb_spec hs : forallb wf_hintb hs = true <-> Forall wf_hint hs.
Proof. rewrite forallb_forall, Forall_forall. split; intros H x Hx; apply wf_hintb_spec, H, Hx. Qed.

Lemma wf_msgb_spec m : wf_msgb m = true <-> wf_msg m.
Proof.
  unfold wf_msgb, wf_msg.
  rewrite !andb_true_iff, !N.ltb_lt, Nat.leb_le, wf_bytesb_spec, eqb_true_iff, wf_hintsb_spec. tauto.
Qed.

Lemma encode_hints_length_ge hs : (length hs <= length (encode_hints hs))%nat.
Proof.
  induction hs as [|h t IH]; cbn [encode_hints length]; [lia|]. rewrite app_length. lia.
Qed.

Lemma encode_hints_wf hs : Forall wf_hint hs -> wf_bytes (encode_hints hs).
Proof.
  induction 1 as [|h t (Ht & Hl & Hd) _ IH]; cbn [encode_hints]; [constructor|].
  constructor; [|constructor; [|apply wf_bytes_app; split; assumption]].
  - unfold wf_byte. destruct (is_nil t); lia.
  - unfold wf_byte. lia.
Qed.

Lemma decode_hints_encode hs : forall fuel rest,
  (length hs <= fuel)%nat -> hs <> [] -> Forall wf_hint hs ->
  decode_hints fuel (encode_hints hs ++ rest) = Some (hs, rest).
Proof.
  induction hs as [|h t IH]; intros fuel rest Hf Hne Hwf; [congruence|].
  destruct fuel as [|f]; [cbn in Hf; lia|].
  inversion Hwf as [|? ? (Ht & Hl & Hd) Hwt]; subst.
  cbn [encode_hints decode_hints app]. rewrite <- app_assoc.
  replace (blen (h_data h) mod 256) with (blen (h_data h)) by lia.
  rewrite !to_nat_blen, ltb_len_app, firstn_len_app, skipn_len_app.
  replace ((h_type h mod 128 * 2 + (if is_nil t then 0 else 1)) / 2) with (h_type h)
    by (destruct (is_nil t); lia).
  replace ((h_type h mod 128 * 2 + (if is_nil t then 0 else 1)) mod 2) with (if is_nil t then 0 else 1)
    by (destruct (is_nil t); lia).
  destruct t as [|h2 t'].
  - cbn [is_nil encode_hints app]. cbn. destruct h; reflexivity.
  - cbn [is_nil]. replace (1 =? 1) with true by reflexivity.
    rewrite IH; [destruct h; reflexivity| cbn [length] in *; lia | congruence | exact Hwt].
Qed.

Lemma decode_hints_inv : forall fuel bs hs r,
  wf_bytes bs -> decode_hints fuel bs = Some (hs, r) ->
  bs = encode_hints hs ++ r /\ hs <> [] /\ Forall wf_hint hs /\ wf_bytes r.
Proof.
  induction fuel as [|f IH]; intros bs hs r Hwf E; [discriminate|].
  cbn [decode_hints] in E.
  destruct bs as [|b0 [|ln rest]]; try discriminate.
  inversion Hwf as [|? ? Hb0 Hwf1]; subst. inversion Hwf1 as [|? ? Hln Hwr]; subst.
  unfold wf_byte in Hb0, Hln.
  destruct (Nat.ltb_spec (length rest) (N.to_nat ln)) as [|Hlen]; [discriminate|].
  assert (Hfl : blen (firstn (N.to_nat ln) rest) = ln) by (unfold blen; rewrite firstn_length; lia).
  (* whatever follows this hint; the low bit of its first octet says whether anything does *)
  assert (H : forall hs' r', skipn (N.to_nat ln) rest = encode_hints hs' ++ r' ->
            b0 mod 2 = (if is_nil hs' then 0 else 1) -> Forall wf_hint hs' -> wf_bytes r' ->
            Some (mkHint (b0 / 2) (firstn (N.to_nat ln) rest) :: hs', r') = Some (hs, r) ->
            b0 :: ln :: rest = encode_hints hs ++ r /\ hs <> [] /\ Forall wf_hint hs /\ wf_bytes r).
  { intros hs' r' Hs Hb Hws Hr E'. inversion E'; subst hs r. clear E'.
    repeat split; [|congruence| |exact Hr].
    - cbn [encode_hints h_type h_data]. rewrite Hfl, <- Hb.
      replace (b0 / 2 mod 128 * 2 + b0 mod 2) with b0 by lia. replace (ln mod 256) with ln by lia.
      cbn [app]. rewrite <- app_assoc, <- Hs, firstn_skipn. reflexivity.
    - constructor; [|exact Hws]. unfold wf_hint. cbn [h_type h_data]. rewrite Hfl.
      repeat split; try lia. apply wf_bytes_firstn, Hwr. }
  destruct (N.eqb_spec (b0 mod 2) 1) as [Hodd|Heven].
  - destruct (decode_hints f (skipn (N.to_nat ln) rest)) as [[hs' r']|] eqn:D; [|discriminate].
    destruct (IH _ _ _ (wf_bytes_skipn _ _ Hwr) D) as (Hs & Hne & Hws & Hr).
    apply (H hs' r'); try assumption. destruct hs'; [congruence|exact Hodd].
  - apply (H [] _ eq_refl); [cbn [is_nil]; lia|constructor|apply wf_bytes_skipn, Hwr|exact E].
Qed.

Lemma pow_256_3 : 256 ^ N.of_nat 3 = 16777216.
Proof. reflexivity. Qed.

Lemma pow_256_4 : 256 ^ N.of_nat 4 = 4294967296.
Proof. reflexivity. Qed.

Lemma encode_msg_length m :
  blen (encode_msg m) = 4 + blen (encode_hints (m_hints m)) + blen (m_body m).
Proof.
  unfold encode_msg, blen. cbn [length]. rewrite !app_length, be_length. lia.
Qed.

(** No guard: the flags and the length are read back modulo their widths. *)
Lemma decode_head_encode_any m rest :
  decode_head (encode_msg m ++ rest)
  = Some (m_type m, m_flags m mod 16, len_field m, encode_hints (m_hints m) ++ m_body m ++ rest).
Proof.
  unfold encode_msg, decode_head, len_field, LEN_MOD. cbn [app]. rewrite <- !app_assoc.
  pose proof (N.mod_upper_bound (m_flags m) 16) as Hf.
  pose proof (N.mod_upper_bound (blen (encode_hints (m_hints m)) + blen (m_body m)) 1048576) as Hl.
  set (f := m_flags m mod 16) in *. set (l := _ mod 1048576) in *. clearbody f l.
  rewrite take_be_app by (rewrite pow_256_3; lia).
  do 4 f_equal; lia.
Qed.

Lemma decode_head_encode m rest :
  wf_msg m ->
  decode_head (encode_msg m ++ rest)
  = Some (m_type m, m_flags m, blen (encode_hints (m_hints m)) + blen (m_body m),
          encode_hints (m_hints m) ++ m_body m ++ rest).
Proof.
  intros (_ & Hf & _ & _ & _ & _ & Hl). rewrite decode_head_encode_any.
  unfold len_field. rewrite !N.mod_small by assumption. reflexivity.
Qed.

Theorem decode_msg_encode m rest :
  wf_msgb m = true -> decode_msg (encode_msg m ++ rest) = Some (m, rest).
Proof.
  intros Hb. apply wf_msgb_spec in Hb. pose proof Hb as (Ht & Hf & Hh & Hws & Hn & Hbd & Hl).
  unfold decode_msg. rewrite (decode_head_encode m rest Hb).
  rewrite <- blen_app, !to_nat_blen, app_assoc, ltb_len_app, firstn_len_app, skipn_len_app, Hh.
  destruct m as [t fl hs body]. cbn [m_type m_flags m_hints m_body] in *.
  destruct hs as [|h hs'].
  - cbn [is_nil negb encode_hints app]. reflexivity.
  - cbn [is_nil negb].
    rewrite decode_hints_encode; [| |congruence|exact Hws].
    + destruct (Nat.leb_spec (length (h :: hs')) MAX_LIST); [reflexivity|lia].
    + pose proof (encode_hints_length_ge (h :: hs')). rewrite app_length. lia.
Qed.

(** A message of non-zero type at the front is not padding: one round of [decode_msgs]. *)
Lemma decode_msgs_msg f m bs :
  m_type m <> 0 ->
  decode_msgs (S f) (encode_msg m ++ bs)
  = match decode_msg (encode_msg m ++ bs) with
    | Some (m', rest) =>
        match decode_msgs f rest with Some (ms, pad) => Some (m' :: ms, pad) | None => None end
    | None => None
    end.
Proof.
  intros Ht. unfold encode_msg at 1. cbn [app decode_msgs].
  destruct (N.eqb_spec (m_type m) 0); [contradiction|reflexivity].
Qed.

Theorem declared_len_encode m rest :
  wf_msgb m = true ->
  declared_len (encode_msg m ++ rest) = Some (blen (encode_hints (m_hints m)) + blen (m_body m))
  /\ blen (encode_msg m) = 4 + (blen (encode_hints (m_hints m)) + blen (m_body m)).
Proof.
  intros Hb. apply wf_msgb_spec in Hb. split.
  - unfold declared_len. rewrite (decode_head_encode m rest Hb). reflexivity.
  - rewrite encode_msg_length. lia.
Qed.

(** The guard on the total length is needed: the unchanged code masks the
    20-bit field (known finding).  2^20 zero octets as a bundle PDU. *)
Lemma declared_len_wraps n :
  N.of_nat (S n) = LEN_MOD ->
  let d := repeat 0 (S n) in
  declared_len (encode_msg (mk_bundle d)) = Some 0
  /\ decode_frame (encode_frame (mkFrame [mk_bundle d] [])) = Some (mkFrame [mkMsg 2 0 [] []] d).
Proof.
  intros Hn d.
  assert (Hl : len_field (mk_bundle d) = 0).
  { unfold len_field, mk_bundle, mk_msg, blen. cbn [m_hints m_body encode_hints length]. unfold d.
    rewrite repeat_length, Hn. apply N.mod_same. discriminate. }
  assert (Hh : forall rest, decode_head (encode_msg (mk_bundle d) ++ rest) = Some (2, 0, 0, d ++ rest))
    by (intros rest; rewrite decode_head_encode_any, Hl; reflexivity).
  split.
  - unfold declared_len. rewrite <- (app_nil_r (encode_msg _)), Hh. reflexivity.
  - unfold decode_frame, encode_frame, encode_msgs. cbn [f_msgs f_pad map concat]. rewrite app_nil_r.
    replace (length (encode_msg (mk_bundle d) ++ [])) with (S (length (tl (encode_msg (mk_bundle d) ++ []))))
      by reflexivity.
    rewrite decode_msgs_msg by discriminate. unfold decode_msg. rewrite Hh, app_nil_r. reflexivity.
Qed.

Theorem declared_len_refuted :
  exists d, wf_bytesb d = true
            /\ blen d = 1048576
            /\ declared_len (encode_msg (mk_bundle d)) = Some 0
            /\ option_map (fun f => (map (fun m => blen (m_body m)) (f_msgs f), blen (f_pad f)))
                          (decode_frame (encode_frame (mkFrame [mk_bundle d] [])))
               = Some ([0], 1048576).
Proof.
  assert (Hn : N.of_nat (S (N.to_nat 1048575)) = LEN_MOD) by (rewrite <- N2Nat.inj_succ; apply N2Nat.id).
  destruct (declared_len_wraps _ Hn) as [Hd Hf].
  exists (repeat 0 (S (N.to_nat 1048575))).
  assert (Hb : blen (repeat 0 (S (N.to_nat 1048575))) = 1048576)
    by (unfold blen; rewrite repeat_length; exact Hn).
  split; [|split; [exact Hb|split; [exact Hd|]]].
  - apply wf_bytesb_spec, Forall_forall. intros x Hx. apply repeat_spec in Hx. subst x. reflexivity.
  - rewrite Hf. cbn [option_map f_msgs f_pad map m_body]. rewrite Hb. reflexivity.
Qed.

Lemma decode_msg_inv bs m rest :
  wf_bytes bs -> decode_msg bs = Some (m, rest) ->
  bs = encode_msg m ++ rest /\ wf_msg m /\ wf_bytes rest.
Proof.
  intros Hwf. unfold decode_msg, decode_head.
  destruct bs as [|t rest0]; [discriminate|].
  inversion Hwf as [|? ? Ht Hwf0]; subst. unfold wf_byte in Ht.
  destruct (take_be 3 rest0) as [[v rest1]|] eqn:T; [|discriminate].
  destruct (take_be_sound _ _ _ _ Hwf0 T) as (Hr0 & Hv & Hw1). rewrite pow_256_3 in Hv.
  unfold LEN_MOD. set (n := N.to_nat (v mod 1048576)).
  destruct (Nat.ltb_spec (length rest1) n) as [|Hlen]; [discriminate|].
  assert (Hbl : blen (firstn n rest1) = v mod 1048576) by (unfold blen; rewrite firstn_length; lia).
  pose proof (wf_bytes_firstn n rest1 Hw1) as Hwb.
  (* whatever hints [hs] and payload [pl] the body splits into *)
  assert (H : forall hs pl, firstn n rest1 = encode_hints hs ++ pl ->
            has_h (v / 1048576) = negb (is_nil hs) -> Forall wf_hint hs -> (length hs <= MAX_LIST)%nat -> wf_bytes pl ->
            Some (mkMsg t (v / 1048576) hs pl, skipn n rest1) = Some (m, rest) ->
            t :: rest0 = encode_msg m ++ rest /\ wf_msg m /\ wf_bytes rest).
  { intros hs pl Hs Hh Hws Hmax Hwp E. inversion E; subst m rest. clear E.
    assert (Hsum : blen (encode_hints hs) + blen pl = v mod 1048576) by (rewrite <- blen_app, <- Hs; exact Hbl).
    split; [|split; [|apply wf_bytes_skipn, Hw1]].
    - unfold encode_msg, len_field, LEN_MOD. cbn [m_type m_flags m_hints m_body]. rewrite Hsum.
      replace ((v / 1048576) mod 16 * 1048576 + (v mod 1048576) mod 1048576) with v by lia.
      cbn [app]. rewrite <- !app_assoc, (app_assoc (encode_hints hs)), <- Hs, firstn_skipn, <- Hr0. reflexivity.
    - unfold wf_msg, LEN_MOD. cbn [m_type m_flags m_hints m_body]. rewrite Hsum.
      repeat split; try assumption; lia. }
  destruct (has_h (v / 1048576)) eqn:Hh.
  - destruct (decode_hints _ _) as [[hs pl]|] eqn:D; [|discriminate].
    destruct (Nat.leb_spec (length hs) MAX_LIST) as [Hmax|]; [|discriminate].
    destruct (decode_hints_inv _ _ _ _ Hwb D) as (Hs & Hne & Hws & Hwp).
    apply H; try assumption. destruct hs; [congruence|reflexivity].
  - apply (H [] _ eq_refl eq_refl); [constructor|unfold MAX_LIST; cbn [length]; lia|exact Hwb].
Qed.

Definition wf_frame (f : frame) : Prop :=
  Forall (fun m => wf_msg m /\ m_type m <> 0) (f_msgs f)
  /\ (length (f_msgs f) <= MAX_LIST)%nat
  /\ (match f_pad f with [] => True | b :: _ => b = 0 end) /\ wf_bytes (f_pad f).

Lemma wf_frameb_spec f : wf_frameb f = true <-> wf_frame f.
Proof.
  unfold wf_frameb, wf_frame, wf_padb.
  rewrite !andb_true_iff, Nat.leb_le, wf_bytesb_spec, forallb_forall, Forall_forall.
  assert (Hm : forall m, wf_msgb m && negb (m_type m =? 0) = true <-> wf_msg m /\ m_type m <> 0)
    by (intros m; rewrite andb_true_iff, negb_true_iff, N.eqb_neq, wf_msgb_spec; reflexivity).
  assert (Hp : (match f_pad f with [] => true | b :: _ => b =? 0 end) = true
               <-> match f_pad f with [] => True | b :: _ => b = 0 end)
    by (destruct (f_pad f); [tauto|apply N.eqb_eq]).
  rewrite Hp. setoid_rewrite Hm. tauto.
Qed.

Lemma encode_msgs_cons m ms : encode_msgs (m :: ms) = encode_msg m ++ encode_msgs ms.
Proof. reflexivity. Qed.

Lemma encode_msgs_length_ge ms : (length ms <= length (encode_msgs ms))%nat.
Proof.
  induction ms as [|m t IH]; [cbn; lia|]. rewrite encode_msgs_cons, app_length.
  unfold encode_msg. cbn [length]. lia.
Qed.

Lemma decode_msgs_encode ms : forall fuel pad,
  Forall (fun m => wf_msg m /\ m_type m <> 0) ms ->
  (match pad with [] => True | b :: _ => b = 0 end) ->
  (length ms <= fuel)%nat ->
  decode_msgs fuel (encode_msgs ms ++ pad) = Some (ms, pad).
Proof.
  induction ms as [|m t IH]; intros fuel pad Hms Hpad Hf.
  - cbn [encode_msgs map concat app]. destruct pad as [|b p]; [|subst b]; destruct fuel; reflexivity.
  - inversion Hms as [|? ? [Hm Hty] Hms']; subst.
    destruct fuel as [|f]; [cbn in Hf; lia|].
    rewrite encode_msgs_cons, <- app_assoc.
    rewrite decode_msgs_msg by exact Hty. rewrite decode_msg_encode by (apply wf_msgb_spec, Hm).
    rewrite IH; [reflexivity|exact Hms'|exact Hpad|cbn [length] in Hf; lia].
Qed.

Theorem decode_frame_encode f : wf_frameb f = true -> decode_frame (encode_frame f) = Some f.
Proof.
  intros H. apply wf_frameb_spec in H as (Hms & Hn & Hp & _).
  unfold decode_frame, encode_frame.
  rewrite decode_msgs_encode; [|exact Hms|exact Hp|].
  - destruct (Nat.leb_spec (length (f_msgs f)) MAX_LIST); [destruct f; reflexivity|lia].
  - pose proof (encode_msgs_length_ge (f_msgs f)). rewrite app_length. lia.
Qed.

Lemma decode_msgs_inv : forall fuel bs ms pad,
  wf_bytes bs -> decode_msgs fuel bs = Some (ms, pad) ->
  bs = encode_msgs ms ++ pad
  /\ Forall (fun m => wf_msg m /\ m_type m <> 0) ms
  /\ (match pad with [] => True | b :: _ => b = 0 end) /\ wf_bytes pad.
Proof.
  induction fuel as [|f IH]; intros bs ms pad Hwf E.
  (* no octets, or padding: the same answer whatever the fuel *)
  all: destruct bs as [|b tl]; cbn [decode_msgs] in E; [inversion E; subst; repeat split; constructor|].
  all: destruct (N.eqb_spec b 0) as [Hb|Hb]; [inversion E; subst; repeat split; [constructor|exact Hwf]|].
  { discriminate. }
  destruct (decode_msg (b :: tl)) as [[m rest]|] eqn:D; [|discriminate].
  destruct (decode_msgs f rest) as [[ms' pad']|] eqn:D2; [|discriminate].
  inversion E; subst ms pad. clear E.
  destruct (decode_msg_inv _ _ _ Hwf D) as (Hs & Hm & Hwr).
  destruct (IH _ _ _ Hwr D2) as (Hs2 & Hms & Hp & Hwp).
  repeat split; try assumption.
  - rewrite encode_msgs_cons, <- app_assoc, <- Hs2. exact Hs.
  - constructor; [|exact Hms]. split; [exact Hm|].
    unfold encode_msg in Hs. cbn [app] in Hs. inversion Hs. congruence.
Qed.

Theorem decode_frame_inv bs f :
  wf_bytesb bs = true -> decode_frame bs = Some f -> encode_frame f = bs /\ wf_frameb f = true.
Proof.
  intros Hwf. apply wf_bytesb_spec in Hwf. unfold decode_frame.
  destruct (decode_msgs (length bs) bs) as [[ms pad]|] eqn:D; [|discriminate].
  destruct (Nat.leb_spec (length ms) MAX_LIST) as [Hn|]; [|discriminate].
  intros E. inversion E; subst f. clear E.
  destruct (decode_msgs_inv _ _ _ _ Hwf D) as (Hs & Hms & Hp & Hwp).
  split; [unfold encode_frame; cbn [f_msgs f_pad]; congruence|].
  apply wf_frameb_spec. unfold wf_frame. cbn [f_msgs f_pad]. tauto.
Qed.
