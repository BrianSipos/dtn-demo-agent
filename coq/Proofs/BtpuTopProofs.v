(** Property-level statements of C20 over the code's own sender
    ([send_transfer], one total-length hint), assembled from the codec, send
    and receive proofs; with non-vacuity examples for every hypothesis. *)
From Coq Require Import NArith List Bool Lia PeanoNat Permutation.
From DTN Require Import Lib.Bytes Model.Btpu Proofs.BtpuProofs Proofs.BtpuSendProofs Proofs.BtpuRecvProofs.
Import ListNotations.
Local Open Scope N_scope.

Lemma blen_mkdata seed len : blen (mkdata seed len) = N.of_nat len.
Proof. unfold blen, mkdata. rewrite mkdata_aux_length. reflexivity. Qed.

Lemma mkdata_wfb seed len : wf_bytesb (mkdata seed len) = true.
Proof. apply wf_bytesb_spec, mkdata_aux_wf. Qed.

(** The octets of the examples' bundle.  An example that looks at them
    rewrites with this first, so that the generator runs here only. *)
Lemma mkdata_1_40 : mkdata 1 40 = ltac:(let v := eval vm_compute in (mkdata 1 40) in exact v).
Proof. vm_compute. reflexivity. Qed.

Theorem within_mtu mtu xid data :
  mtu_feasible mtu = true \/ fits (Some mtu) (blen data) = true ->
  Forall (fun f => blen f <= mtu) (send_transfer (Some mtu) xid data).
Proof.
  intros H. unfold send_transfer. apply within_mtu_any.
  destruct H as [H|H]; [left; apply mtu_feasible_xfer, H|right; exact H].
Qed.

Example within_mtu_nonvacuous :
  mtu_feasible 19 = true /\ fits (Some 19) (blen (mkdata 1 40)) = false
  /\ length (send_transfer (Some 19) 7 (mkdata 1 40)) = 40%nat.
Proof. vm_compute. repeat split. Qed.

(** The frames of a bundle that does not fit are the segments in index
    order: indices 0,1,2,..., non-empty data, end marker exactly on the
    last, data concatenated in that order = the bundle, at least two. *)
Theorem segmented_send mtu xid data :
  mtu_feasible mtu = true -> fits (Some mtu) (blen data) = false ->
  let hs := xfer_hints (blen data) in
  let segs := segments hs mtu data in
  send_transfer (Some mtu) xid data = map (seg_frame hs xid) segs
  /\ shape 0 segs
  /\ concat (map seg_data segs) = data
  /\ (2 <= length segs)%nat.
Proof.
  intros Hm Hf. cbn zeta. pose proof (mtu_feasible_xfer (blen data) mtu Hm) as Hm'.
  split; [unfold send_transfer, send_transfer_h; rewrite Hf; reflexivity|].
  destruct (segments_spec _ _ data Hm') as (Hs & Hc & _).
  split; [exact Hs|]. split; [exact Hc|apply segments_ge2; assumption].
Qed.

Example segmented_send_nonvacuous :
  mtu_feasible 30 = true /\ fits (Some 30) (blen (mkdata 1 40)) = false
  /\ map (fun s => (seg_idx s, length (seg_data s), seg_last s)) (segments (xfer_hints 40) 30 (mkdata 1 40))
     = [(0, 12%nat, false); (1, 12%nat, false); (2, 12%nat, false); (3, 4%nat, true)].
Proof. vm_compute. repeat split. Qed.

Theorem sent_unsegmented mtu xid data :
  fits mtu (blen data) = true -> wf_bytesb data = true -> blen data <? LEN_MOD = true ->
  let f := encode_frame (mkFrame [mk_bundle data] []) in
  send_transfer mtu xid data = [f]
  /\ decode_frame f = Some (mkFrame [mk_bundle data] [])
  /\ declared_len f = Some (blen data) /\ blen f = 4 + blen data
  /\ (data <> [] -> view (mk_bundle data) = CBundle data).
Proof.
  intros Hf Hw Hl. cbn zeta. apply wf_bytesb_spec in Hw. apply N.ltb_lt in Hl.
  assert (Hwf : wf_msg (mk_bundle data)).
  { unfold mk_bundle.
    apply wf_mk_msg; [lia|constructor|unfold MAX_LIST; cbn [length]; lia|exact Hw|].
    cbn [encode_hints]. change (blen []) with 0. lia. }
  split; [unfold send_transfer, send_transfer_h; rewrite Hf; reflexivity|].
  destruct (single_frame _ Hwf ltac:(cbn; lia)) as (Hd & D & L). cbn zeta in D, L. rewrite D, L.
  cbn [mk_bundle mk_msg m_hints m_body is_nil encode_hints]. change (blen []) with 0.
  split; [exact Hd|]. split; [f_equal; lia|]. split; [lia|apply view_mk_bundle].
Qed.

Example sent_unsegmented_nonvacuous :
  fits None (blen (mkdata 3 100)) = true /\ fits (Some 105) (blen (mkdata 3 100)) = true
  /\ wf_bytesb (mkdata 3 100) = true /\ (blen (mkdata 3 100) <? LEN_MOD) = true.
Proof. rewrite mkdata_wfb, !blen_mkdata. vm_compute. repeat split. Qed.

Theorem sent_segments mtu xid data :
  send_okb mtu xid data = true ->
  let hs := xfer_hints (blen data) in
  send_transfer (Some mtu) xid data = map (seg_frame hs xid) (segments hs mtu data)
  /\ Forall (fun s =>
       decode_frame (seg_frame hs xid s) = Some (mkFrame [seg_msg hs xid s] [])
       /\ view (seg_msg hs xid s)
          = (if seg_last s then CEnd xid (seg_idx s) (seg_data s) else CSeg xid (seg_idx s) (seg_data s))
       /\ declared_len (seg_frame hs xid s) = Some (blen (seg_frame hs xid s) - 4)
       /\ m_hints (seg_msg hs xid s) = hs)
     (segments hs mtu data).
Proof.
  intros Hok. cbn zeta. unfold send_okb in Hok. apply xfer_okb_spec in Hok. pose proof Hok as (Hm & Hf & _).
  split; [unfold send_transfer, send_transfer_h; rewrite Hf; reflexivity|].
  eapply Forall_impl; [|apply (segments_encodable _ _ _ _ Hok)]. cbn beta. intros s He.
  destruct (seg_frame_decode _ _ _ He) as [Hd Hv]. split; [exact Hd|]. split; [exact Hv|].
  destruct (seg_msg_wf _ _ _ He) as [Hw Ht]. split; [apply (single_frame _ Hw Ht)|].
  destruct s as [[i d] b]. reflexivity.
Qed.

(** [send_okb] looks at the data only through its length and the octet range. *)
Lemma send_okb_eq mtu xid data :
  send_okb mtu xid data
  = mtu_feasible mtu && negb (fits (Some mtu) (blen data))
    && (xid <? 4294967296) && (blen data <? 4294967296) && wf_bytesb data && (mtu <? LEN_MOD + 4).
Proof.
  unfold send_okb, xfer_okb, mtu_feasible_h, mtu_feasible. rewrite head_len_xfer.
  cbn [xfer_hints forallb length]. rewrite (proj2 (wf_hintb_spec _)); [change (1 <=? MAX_LIST)%nat with true; rewrite !andb_true_r; reflexivity|].
  exact (Forall_inv (xfer_hints_wf _)).
Qed.

Lemma send_okb_mkdata mtu xid seed len :
  mtu_feasible mtu && negb (fits (Some mtu) (N.of_nat len))
  && (xid <? 4294967296) && (N.of_nat len <? 4294967296) && (mtu <? LEN_MOD + 4) = true ->
  send_okb mtu xid (mkdata seed len) = true.
Proof. intros H. rewrite send_okb_eq, mkdata_wfb, blen_mkdata, andb_true_r. exact H. Qed.

Example send_okb_nonvacuous :
  send_okb 30 7 (mkdata 1 40) = true /\ send_okb 19 (4294967295) (mkdata 2 15) = true
  /\ send_okb 1500 0 (mkdata 3 1496) = true.
Proof. split; [|split]; apply send_okb_mkdata; vm_compute; reflexivity. Qed.

Theorem reassembly_any_order_once mtu xid conv st data p :
  send_okb mtu xid data = true ->
  plookup (conv, xid) (r_prog st) = None ->
  Permutation p (send_transfer (Some mtu) xid data) ->
  let fin := fold_left (recv_frame conv) p st in
  r_queue fin = r_queue st ++ [(r_next st, data)]
  /\ r_signals fin = r_signals st ++ [(r_next st, blen data, c_peer conv)]
  /\ plookup (conv, xid) (r_prog fin) = None
  /\ (forall p1 p2, p = p1 ++ p2 -> p2 <> [] ->
        r_queue (fold_left (recv_frame conv) p1 st) = r_queue st
        /\ r_signals (fold_left (recv_frame conv) p1 st) = r_signals st).
Proof. exact (reassembly_h (xfer_hints (blen data)) mtu xid conv st data p). Qed.

Example reassembly_nonvacuous :
  let frames := send_transfer (Some 30) 7 (mkdata 1 40) in
  send_okb 30 7 (mkdata 1 40) = true
  /\ plookup (chan1, 7) (r_prog rx_init) = None
  /\ queued (fold_left (recv_frame chan1) [nth 2 frames []; nth 0 frames []; nth 3 frames []; nth 1 frames []] rx_init)
     = [mkdata 1 40]
  /\ queued (fold_left (recv_frame chan1) [nth 2 frames []; nth 0 frames []; nth 3 frames []] rx_init) = [].
Proof. cbv zeta. rewrite mkdata_1_40. vm_compute. repeat split. Qed.

(** Noted behaviour outside the quantifier of C20 (peer-crafted input,
    zero-length bundle): what the guards above exclude, by computation. *)

(** [if xfer.got_end:] -- a peer's single-segment transfer (end marker on
    index 0) is never queued.  This sender never produces one
    ([segmented_send]: at least two segments). *)
Theorem note_end_index_zero_never_completes :
  let f := seg_frame (xfer_hints 3) 9 (0, [1; 2; 3], true) in
  decode_frame f = Some (mkFrame [mk_seg (xfer_hints 3) true 9 0 [1; 2; 3]] [])
  /\ queued (recv_frame chan1 rx_init f) = []
  /\ map (fun e => (fst e, x_end (snd e), x_segs (snd e))) (r_prog (recv_frame chan1 rx_init f))
     = [((chan1, 9), Some 0, [(0, [1; 2; 3])])].
Proof. vm_compute. repeat split. Qed.

(** A zero-length bundle is sent as [02 00 00 00]; the receiver dissects no
    BundlePdu layer from it and queues nothing. *)
Theorem note_zero_length_bundle_not_queued :
  send_transfer None 0 [] = [[2; 0; 0; 0]]
  /\ decode_frame [2; 0; 0; 0] = Some (mkFrame [mk_bundle []] [])
  /\ view (mk_bundle []) = COther
  /\ queued (recv_frame chan1 rx_init [2; 0; 0; 0]) = [].
Proof. vm_compute. repeat split. Qed.

(** A transfer message without data raises in [_recv_msg]. *)
Theorem note_empty_segment_raises :
  snd (recv_frame_r chan1 rx_init (seg_frame [] 9 (1, [], false))) = true.
Proof. vm_compute. reflexivity. Qed.

(** An MTU that leaves no room for data ([mtu <= 18]) with a bundle that does
    not fit: the real loop never ends; the model's fuel runs out after
    [length data] empty segments.  Hence the guard [mtu_feasible]. *)
Theorem note_infeasible_mtu :
  mtu_feasible 18 = false
  /\ map seg_data (segments (xfer_hints 14) 18 (mkdata 1 14)) = repeat [] 14.
Proof. vm_compute. repeat split. Qed.
