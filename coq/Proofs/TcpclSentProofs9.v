(** TCPCL endpoint model: SESS_INIT -- an active endpoint sends at most one,
    as its second frame; a passive endpoint sends one per SESS_INIT it handles,
    the first as its first message. *)
From Coq Require Import List Bool Lia.
From RecordUpdate Require Import RecordSet.
From DTN Require Import Model.TcpclMsg Model.TcpclSess
  Proofs.TcpclSentProofs1 Proofs.TcpclSentProofs2 Proofs.TcpclSentProofs5 Proofs.TcpclSentProofs7 Proofs.TcpclSessSpec.
Import ListNotations RecordSetNotations.
Local Open Scope N_scope.

Definition is_initf (f : frame) : bool := match f with FMsg m => is_init m | _ => false end.
Definition ninit (l : list frame) : nat := length (filter is_initf l).

Lemma ninit_app a b : ninit (a ++ b) = (ninit a + ninit b)%nat.
Proof. unfold ninit. rewrite filter_app, app_length. reflexivity. Qed.

Lemma ninit_out_msg m s : ninit (out_msg m s) = if c_passive (cf s) && is_init m then 1%nat else 0%nat.
Proof. destruct (out_msg_cases m s) as [E|E|? E|? ? ? ? ? ? E|E]; rewrite E; reflexivity. Qed.

Lemma ninit_out_op o s : ninit (out_op o s) = 0%nat.
Proof. destruct (out_op_cases o s); reflexivity. Qed.

(** An active endpoint has sent at most its contact header while the contact
    exchange lasts, and afterwards contact header, SESS_INIT, and no further
    SESS_INIT. *)
Definition DA (s : ep) : Prop :=
  c_passive (cf s) = false ->
  ((length (sent s) <= 1)%nat /\ (in_conn s = false \/ closed s = true))
  \/ (exists f1 i rest, sent s = f1 :: FMsg i :: rest /\ is_init i = true /\ ninit rest = 0%nat
                        /\ in_conn s = true).

Lemma DA_recv_msg m s : DA s -> in_conn s = true -> closed s = false -> DA (fst (recv_frame (FMsg m) s)).
Proof.
  intros H Hk Hc. unfold DA. rewrite cf_recv_frame, sent_recv_msg, in_conn_recv_msg. intros Ha.
  destruct (H Ha) as [[_ [e|e]]|(f1&i&rest&E&Hi&Hn&Hin)]; try congruence.
  right. exists f1, i, (rest ++ out_msg m s). rewrite E. split; [reflexivity|]. split; [exact Hi|].
  split; [|exact Hk]. rewrite ninit_app, Hn, ninit_out_msg, Ha. reflexivity.
Qed.

Lemma DA_recv_contact c s : CF s -> DA s -> in_conn s = false -> DA (fst (recv_frame (FContact c) s)).
Proof.
  intros (_&_&_&_&C5) H Hk. unfold DA.
  destruct (recv_contact_spec c s) as [Hok|Hok Hp Ht|Hok Hp Ht|Hok Hp Hch|x Hok Hp Hch Ht|x Hok Hp Hch Ht]; ep_cbn;
    intros Ha; try congruence;
    (destruct (H Ha) as [[Hl _]|(f1&i&rest&E&Hi&Hn&Hin)]; [|congruence]); auto.
  right. assert (Hne : sent s <> []) by (apply C5; congruence).
  destruct (sent s) as [|f1 [|f2 r]]; [contradiction| |cbn in Hl; lia].
  exists f1, (si_msg_of (cf s)), []. repeat split; reflexivity.
Qed.

Lemma DA_step_o o s : I2 s -> CF s -> DA s -> closed s = false -> not_rx o = true -> DA (step s o).
Proof.
  intros HI (_&_&C3&C4&_) H Hc Ho. unfold DA.
  rewrite (step_cf s o), (sent_step o s Hc Ho), (in_conn_step_o o s Ho). intros Ha.
  destruct (out_op_guard o s HI) as [He|[(Hs&He&Hst&_)|(Hall&Hsess)]].
  - rewrite He, app_nil_r. destruct (H Ha) as [[Hl [e|e]]|X]; [left; auto|congruence|right; exact X].
  - rewrite He, (C3 Ha Hst). destruct (H Ha) as [[Hl [e|e]]|(f1&i&rest&E&_)]; [|congruence|].
    + left. split; [cbn; lia|left; exact e].
    + rewrite (C3 Ha Hst) in E. discriminate.
  - destruct HI as (F1&_). pose proof (F1 Hsess) as Hin.
    destruct (H Ha) as [[Hl [e|e]]|(f1&i&rest&E&Hi&Hn&_)]; try congruence.
    right. exists f1, i, (rest ++ out_op o s). rewrite E. split; [reflexivity|]. split; [exact Hi|].
    split; [|exact Hin]. rewrite ninit_app, Hn, ninit_out_op. reflexivity.
Qed.

Lemma DA_keeps : keeps (fun s => I2 s /\ CF s) DA.
Proof.
  constructor; try (intros; assumption).
  - intros s o [HI HC]. apply DA_step_o; assumption.
  - intros s [c|m] rest [_ HC] H Hc Hk; [apply DA_recv_contact|apply DA_recv_msg]; assumption.
Qed.

Lemma InvA_run c ops : (I2 (run c ops) /\ CF (run c ops)) /\ DA (run c ops).
Proof.
  apply (keeps_run _ c (keeps_and _ _ I2CF_keeps DA_keeps)).
  split; [split; [apply I2_init|apply CF_init]|]. intros _. left. cbn. split; [lia|left; reflexivity].
Qed.

(** An active endpoint sends at most one SESS_INIT, and its second frame is
    one, whatever the peer does. *)
Theorem sess_init_active c ops : c_passive c = false -> let s := run c ops in
  (length (filter is_initf (sent s)) <= 1)%nat
  /\ (forall f1 f2 rest, sent s = f1 :: f2 :: rest ->
        exists ka mru xm nid ext, f2 = FMsg (MSessInit ka mru xm nid ext))
  /\ (forall f1 f2 rest, sent s = f1 :: f2 :: rest -> length (filter is_initf rest) = 0%nat).
Proof.
  intros Ha. cbv zeta. destruct (InvA_run c ops) as ((_&C1&_)&HD).
  unfold DA in HD. rewrite cf_run in HD. specialize (HD Ha).
  destruct HD as [[Hl _]|(f1&i&rest&E&Hi&Hn&_)].
  - split; [|split; intros f1 f2 rest E; rewrite E in Hl; cbn in Hl; lia].
    destruct (sent (run c ops)) as [|f [|g r]]; [cbn; lia| |cbn in Hl; lia].
    destruct C1 as [C1|(r&C1&_)]; [discriminate|]. inversion C1. cbn. lia.
  - rewrite E. destruct C1 as [C1|(r&C1&_)]; [rewrite E in C1; discriminate|].
    rewrite E in C1. inversion C1. subst f1. split; [|split].
    + unfold ninit in Hn. cbn [filter is_initf our_contact]. rewrite Hi. cbn [length]. rewrite Hn. lia.
    + intros g1 g2 r' E'. inversion E'. subst. destruct i; try discriminate Hi. eauto 6.
    + intros g1 g2 r' E'. inversion E'. subst. exact Hn.
Qed.

Lemma ninit_out_contact_passive c s : c_passive (cf s) = true -> ninit (out_contact c s) = 0%nat.
Proof. intros Hp. destruct (out_contact_cases c s); try reflexivity. congruence. Qed.

Lemma length_out_contact c s : (length (out_contact c s) <= 1)%nat.
Proof. destruct (out_contact_cases c s); cbn; lia. Qed.

(** One SESS_INIT sent per SESS_INIT handled. *)
Definition init_answered (s : ep) : Prop := c_passive (cf s) = true -> ninit (sent s) = ninit (handled s).

(** The first message sent answers the first message handled, if that is a SESS_INIT. *)
Definition init_first (s : ep) : Prop :=
  c_passive (cf s) = true ->
  match handled s with
  | [] => in_conn s = false
  | [_] => (length (sent s) <= 1)%nat /\ in_sess s = false
  | _ :: FMsg m :: _ =>
      is_init m = true -> exists f1 i rest, sent s = f1 :: FMsg i :: rest /\ is_init i = true
  | _ => True
  end.

Lemma init_answered_recv_frame fr s rest : init_answered s ->
  init_answered (fst (recv_frame fr (s <| rx_buf := rest |> <| handled := handled s ++ [fr] |>))).
Proof.
  unfold init_answered. rewrite cf_recv_frame, handled_recv_frame. ep_cbn. intros H Hp.
  rewrite ninit_app. destruct fr as [c|m].
  - rewrite sent_recv_contact. ep_cbn. rewrite ninit_app, ninit_out_contact_passive by exact Hp.
    rewrite (H Hp). reflexivity.
  - rewrite sent_recv_msg. ep_cbn. rewrite ninit_app, ninit_out_msg. ep_cbn. rewrite Hp, (H Hp). cbn [andb].
    f_equal. unfold ninit. cbn [filter is_initf]. destruct (is_init m); reflexivity.
Qed.

Lemma init_answered_step_o o s : init_answered s -> closed s = false -> not_rx o = true -> init_answered (step s o).
Proof.
  unfold init_answered. intros H Hc Ho. rewrite (step_cf s o), (sent_step o s Hc Ho), (handled_step_o o s Ho).
  intros Hp. rewrite ninit_app, ninit_out_op, (H Hp). lia.
Qed.

Lemma init_first_recv_frame fr s rest : I2 s -> CF s -> init_first s -> kind_ok s fr ->
  init_first (fst (recv_frame fr (s <| rx_buf := rest |> <| handled := handled s ++ [fr] |>))).
Proof.
  intros (F1&_) (_&C2&_&C4&_) H Hk. unfold init_first. rewrite cf_recv_frame, handled_recv_frame. ep_cbn. intros Hp.
  specialize (H Hp). destruct (handled s) as [|c0 [|f2 hs]] eqn:Eh; cbn [app].
  - (* first frame *)
    destruct fr as [c|m]; cbn [kind_ok] in Hk; [|congruence].
    rewrite sent_recv_contact, in_sess_recv_contact. ep_cbn.
    rewrite (C2 Hp Hk). cbn [app]. split; [apply length_out_contact|].
    destruct (in_sess s) eqn:Es; [|reflexivity]. rewrite (F1 eq_refl) in Hk. discriminate.
  - (* second frame *)
    destruct fr as [c|m]; [exact I|]. cbn [kind_ok] in Hk. intros Hi.
    destruct H as [Hl Hs]. rewrite sent_recv_msg. ep_cbn.
    pose proof (C4 Hk) as Hne. destruct (sent s) as [|f1 [|g r]]; [contradiction| |cbn in Hl; lia].
    destruct m; try discriminate Hi. unfold out_msg. ep_cbn. rewrite Hp. cbn [app].
    exists f1, (sess_init_msg (cf s)), []. split; reflexivity.
  - (* later frames *)
    destruct f2 as [c2|m2]; [exact I|]. intros Hi. destruct (H Hi) as (f1&i&r&E&Hii).
    destruct fr as [c|m].
    + rewrite sent_recv_contact. ep_cbn. rewrite E. cbn [app]. eauto.
    + rewrite sent_recv_msg. ep_cbn. rewrite E. cbn [app]. eauto.
Qed.

Lemma init_first_step_o o s : I2 s -> init_first s -> closed s = false -> not_rx o = true -> init_first (step s o).
Proof.
  intros HI H Hc Ho. unfold init_first.
  rewrite (step_cf s o), (handled_step_o o s Ho), (sent_step o s Hc Ho), (in_conn_step_o o s Ho),
    (in_sess_step_o o s Ho).
  intros Hp. specialize (H Hp). destruct (handled s) as [|c0 [|f2 hs]]; [exact H| |].
  - destruct H as [Hl Hs]. split; [|exact Hs].
    destruct (out_op_guard o s HI) as [He|[(_&_&_&Ha)|(_&Hsess)]]; [|congruence|congruence].
    rewrite He, app_nil_r. exact Hl.
  - destruct f2 as [c2|m2]; [exact I|]. intros Hi. destruct (H Hi) as (f1&i&r&E&Hii).
    rewrite E. cbn [app]. eauto.
Qed.

Lemma passive_init_keeps : keeps (fun s => I2 s /\ CF s) (fun s => init_answered s /\ init_first s).
Proof.
  constructor; try (intros; assumption).
  - intros s o [HI _] [H1 H2] Hc Ho. split; [apply init_answered_step_o|apply init_first_step_o]; assumption.
  - intros s fr rest [HI HC] [H1 H2] _ Hk. split; [apply init_answered_recv_frame|apply init_first_recv_frame]; assumption.
Qed.

Lemma InvP_run c ops : (I2 (run c ops) /\ CF (run c ops)) /\ init_answered (run c ops) /\ init_first (run c ops).
Proof.
  apply (keeps_run _ c (keeps_and _ _ I2CF_keeps passive_init_keeps)).
  split; [split; [apply I2_init|apply CF_init]|]. split; intros _; reflexivity.
Qed.

(** A passive endpoint sends one SESS_INIT per SESS_INIT it handles, and if the
    first message it handles is a SESS_INIT then the first message it sends is
    its SESS_INIT. *)
Theorem sess_init_passive c ops : c_passive c = true -> let s := run c ops in
  length (filter is_initf (sent s)) = length (filter is_initf (handled s))
  /\ (forall c0 ka mru xm nid ext hs, handled s = c0 :: FMsg (MSessInit ka mru xm nid ext) :: hs ->
      exists f1 ka' mru' xm' nid' ext' rest, sent s = f1 :: FMsg (MSessInit ka' mru' xm' nid' ext') :: rest).
Proof.
  intros Hp. cbv zeta. destruct (InvP_run c ops) as (_&H1&H2). unfold init_answered, init_first in *. rewrite cf_run in *.
  split; [exact (H1 Hp)|]. intros c0 ka mru xm nid ext hs E. specialize (H2 Hp). rewrite E in H2.
  destruct (H2 eq_refl) as (f1&i&r&Es&Hi). destruct i; try discriminate Hi. eauto 10.
Qed.
