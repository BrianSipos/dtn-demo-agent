(** C01 / C04, sender side: invariants of the abstract transfer system
    of Proofs/TcpclXferAbs.v, transported to every run of the endpoint model. *)
From Coq Require Import ZArith NArith List Bool Lia ZifyBool ZifyN ZifyNat Sorted.
From RecordUpdate Require Import RecordSet.
From DTN Require Import Lib.Bytes Model.TcpclMsg Model.TcpclSess Model.TcpclXferSpec
  Proofs.TcpclSessBasics Proofs.TcpclXferAbs.
From DTN Require Proofs.TcpclSentProofs12.
Import ListNotations RecordSetNotations.
Local Open Scope N_scope.

(** ** Lists *)
Lemma snoc_cases {A} (l : list A) g pre x post :
  l ++ [g] = pre ++ x :: post ->
  (exists post', post = post' ++ [g] /\ l = pre ++ x :: post') \/ (post = [] /\ pre = l /\ x = g).
Proof.
  intros E. destruct post as [|y post] using rev_ind.
  - right. apply app_inj_tail in E. destruct E as [-> ->]. auto.
  - left. clear IHpost. change (pre ++ x :: post ++ [y]) with (pre ++ (x :: post) ++ [y]) in E.
    rewrite app_assoc in E. apply app_inj_tail in E. destruct E as [-> ->]. exists post. auto.
Qed.

(** [start; start+1; ...; start+len-1] in N. *)
Definition Nseq (start len : nat) : list N := map N.of_nat (seq start len).

Lemma Nseq_snoc start len : Nseq start (S len) = Nseq start len ++ [N.of_nat (start + len)].
Proof. unfold Nseq. rewrite seq_S, map_app. reflexivity. Qed.

(** Every segment of a frame sequence is preceded by a SESS_INIT. *)
Definition init_first (l : list frame) : Prop :=
  forall pre g post, l = pre ++ g :: post -> seg_of_frame g <> [] -> existsb is_sess_init pre = true.

Definition has_init (l : list frame) : bool := existsb is_sess_init l.

Lemma has_init_app a b : has_init (a ++ b) = has_init a || has_init b.
Proof. apply existsb_app. Qed.

Lemma init_first_snoc l g : init_first l -> (seg_of_frame g <> [] -> has_init l = true) -> init_first (l ++ [g]).
Proof.
  intros H Hg pre x post E Hx. apply snoc_cases in E.
  destruct E as [(post' & -> & ->)|(-> & -> & ->)]; [eapply H; [reflexivity|exact Hx]|apply Hg, Hx].
Qed.

Definition no_refuse (l : list frame) : Prop := Forall (fun f => is_refuse f = false) l.

(** ** Basic invariants of the abstract system *)
(** Project the abstract state after its updates, everywhere. *)
Ltac av_simpl := cbn [a_q a_pas a_cl a_ic a_is a_it a_nid a_ps a_tt a_tl a_hd a_sn a_sc a_ids a_ev set] in *.

Set Implicit Arguments.
Record Binv (v : av) : Prop := {
  b_conn : a_cl v = false -> a_ic v = true -> a_pas v = false -> has_init (a_sn v) = true;
  b_sess : a_is v = true -> has_init (a_sn v) = true;
  b_cur : a_tt v <> None -> a_is v = true;
  b_init_first : init_first (a_sn v);
  b_no_refuse : no_refuse (a_sn v);
  b_succ : forall id len, In (id, len) (a_sc v) ->
     exists fl, has_end fl = true /\ In (FMsg (MXferAck fl id len)) (a_hd v);
  b_nid : a_nid v = N.of_nat (length (a_q v)) + 1;
  b_ids : a_ids v = Nseq 1 (length (a_q v)) }.
Unset Implicit Arguments.

(** One more frame is sent; the transfer in progress may change with it. *)
Lemma Binv_sent v f tt tl : Binv v -> (seg_of_frame f <> [] -> has_init (a_sn v) = true) -> is_refuse f = false ->
  (tt <> None -> a_is v = true) -> Binv (v <| a_sn := a_sn v ++ [f] |> <| a_tt := tt |> <| a_tl := tl |>).
Proof.
  intros [K J1 J2 J3 NR A1 Hn Hi] Hf Hr Ht. constructor; av_simpl; try assumption.
  - intros. rewrite has_init_app, K by assumption. reflexivity.
  - intros. rewrite has_init_app, J1 by assumption. reflexivity.
  - apply init_first_snoc; [exact J3|exact Hf].
  - apply Forall_app. split; [exact NR|]. constructor; [exact Hr|constructor].
Qed.

Lemma Binv_step v v' : Binv v -> astep v v' -> Binv v'.
Proof.
  intros HB H. pose proof HB as [K J1 J2 J3 NR A1 Hn Hi]. destruct H.
  1: (* send *) exact (Binv_sent v f (a_tt v) (a_tl v) HB (fun Hx => False_ind _ (Hx H)) H0 J2).
  11: { (* seg: there is a transfer in progress, so the session is established *)
    assert (IS : has_init (a_sn v) = true) by (apply J1, J2; rewrite H; discriminate).
    destruct (newlen =? total).
    - exact (Binv_sent v (FMsg m) None 0 HB (fun _ => IS) eq_refl (fun F => False_ind _ (F eq_refl))).
    - exact (Binv_sent v (FMsg m) (a_tt v) newlen HB (fun _ => IS) eq_refl J2). }
  all: constructor; av_simpl; try assumption.
  - (* close *) intros F. discriminate F.
  - (* handle *)
    intros id len Hin. destruct (A1 _ _ Hin) as (fl & E & Hf). exists fl. split; [exact E|].
    apply in_or_app. left. exact Hf.
  - (* conn *) intros Cl _ P. destruct H as [H|[H|H]]; [congruence|congruence|exact H].
  - (* sess *) intros _. destruct (a_pas v) eqn:P; [apply H1; reflexivity|apply K; auto].
  - intros _. reflexivity.
  - (* queue *) rewrite app_length. cbn [length]. lia.
  - rewrite app_length. cbn [length]. rewrite Nat.add_1_r, Nseq_snoc, Hi, Hn. f_equal. f_equal. lia.
  - (* refuse_cur *) intros F. contradiction F. reflexivity.
  - (* start *) intros _. assumption.
  - (* succ *)
    intros i l Hin. apply in_app_or in Hin. destruct Hin as [Hin|[[= <- <-]|[]]]; [apply A1, Hin|].
    exists fl. split; assumption.
Qed.

Lemma Binv_init c : Binv (sv [] (init c)).
Proof.
  constructor; cbn; try discriminate; try reflexivity.
  - intros F. contradiction.
  - intros pre g post E. destruct pre; discriminate E.
  - constructor.
  - intros ? ? [].
Qed.

(** ** Segments, flags, folds *)
Lemma segs_of_app a b : segs_of (a ++ b) = segs_of a ++ segs_of b.
Proof. apply flat_map_app. Qed.

Lemma segs_of_snoc_none l f : seg_of_frame f = [] -> segs_of (l ++ [f]) = segs_of l.
Proof. intros H. rewrite segs_of_app. unfold segs_of at 2. cbn [flat_map]. rewrite H. rewrite !app_nil_r. reflexivity. Qed.

Lemma segs_of_snoc_seg l fl i e d : segs_of (l ++ [FMsg (MXferSeg fl i e d)]) = segs_of l ++ [(fl, i, e, d)].
Proof. rewrite segs_of_app. reflexivity. Qed.

Lemma xfold_snoc l g : xfold (l ++ [g]) = xfer_step (xfold l) g.
Proof. unfold xfold. rewrite fold_left_app. reflexivity. Qed.

Lemma seg_flags_start tl nl tot : has_start (seg_flags tl nl tot) = (tl =? 0).
Proof. unfold seg_flags. destruct (tl =? 0), (nl =? tot); reflexivity. Qed.
Lemma seg_flags_end tl nl tot : has_end (seg_flags tl nl tot) = (nl =? tot).
Proof. unfold seg_flags. destruct (tl =? 0), (nl =? tot); reflexivity. Qed.

(** ** Arithmetic of segmenting *)
Lemma next_seg_len id data tl k : tl <= N.of_nat (length data) ->
  tl + N.of_nat (length (next_seg id data tl k)) <= N.of_nat (length data).
Proof.
  intros H. unfold next_seg. rewrite firstn_length, skipn_length. lia.
Qed.

Lemma next_seg_app id data tl k : tl <= N.of_nat (length data) ->
  firstn (N.to_nat tl) data ++ next_seg id data tl k =
  firstn (N.to_nat (tl + N.of_nat (length (next_seg id data tl k)))) data.
Proof.
  intros H. unfold next_seg.
  set (a := N.to_nat tl). set (sk := skipn a data).
  replace (N.to_nat (tl + N.of_nat (length (firstn k sk)))) with (a + length (firstn k sk))%nat by lia.
  rewrite <- (firstn_skipn a data) at 2. fold sk.
  assert (La : length (firstn a data) = a) by (rewrite firstn_length; lia).
  rewrite firstn_app, La.
  rewrite (firstn_all2 (n := (a + length (firstn k sk))%nat)) by lia.
  f_equal. replace (a + length (firstn k sk) - a)%nat with (length (firstn k sk)) by lia.
  rewrite firstn_length. rewrite <- (firstn_all sk) at 1. rewrite firstn_firstn. reflexivity.
Qed.

Lemma firstn_prefix {A} n (l : list A) : prefix (firstn n l) l.
Proof. exists (skipn n l). symmetry. apply firstn_skipn. Qed.

(** ** Sorted lists *)
Lemma SSorted_snoc {A} (R : A -> A -> Prop) l x :
  StronglySorted R (l ++ [x]) <-> StronglySorted R l /\ Forall (fun a => R a x) l.
Proof.
  induction l as [|a l IH]; cbn [app].
  - split; [intros _; split; constructor|intros _; constructor; constructor].
  - split.
    + intros H. inversion H as [|? ? H1 H2]; subst. apply IH in H1. destruct H1 as [H1 H3].
      apply Forall_app in H2. destruct H2 as [H2 H4]. inversion H4; subst.
      split; constructor; assumption.
    + intros [H1 H2]. inversion H1 as [|? ? H3 H4]; subst. inversion H2; subst.
      constructor; [apply IH; split; assumption|]. apply Forall_app. split; [assumption|]. constructor; [assumption|constructor].
Qed.

Lemma SSorted_app_l {A} (R : A -> A -> Prop) l r : StronglySorted R (l ++ r) -> StronglySorted R l.
Proof.
  induction l as [|a l IH]; cbn [app]; intros H; [constructor|].
  inversion H as [|? ? H1 H2]; subst. apply Forall_app in H2. constructor; [apply IH, H1|apply H2].
Qed.

Lemma dict_del_sorted {V} (R : N * V -> N * V -> Prop) k d :
  StronglySorted R d -> StronglySorted R (dict_del k d).
Proof.
  induction d as [|[a b] d IH]; cbn [dict_del]; intros H; [exact H|].
  inversion H as [|? ? H1 H2]; subst. destruct (a =? k); [exact H1|].
  constructor; [apply IH, H1|apply dict_del_Forall, H2].
Qed.

Lemma bundle_of_app q d id b : bundle_of q id = Some b -> bundle_of (q ++ d) id = Some b.
Proof.
  unfold bundle_of. destruct (id =? 0); [discriminate|]. intros H.
  rewrite nth_error_app1; [exact H|]. apply nth_error_Some. congruence.
Qed.

Lemma bundle_of_new q d : bundle_of (q ++ [d]) (N.of_nat (length q) + 1) = Some d.
Proof.
  unfold bundle_of. destruct (_ =? 0) eqn:E; [apply N.eqb_eq in E; lia|].
  replace (N.to_nat (N.of_nat (length q) + 1 - 1)) with (length q) by lia.
  rewrite nth_error_app2 by lia. rewrite Nat.sub_diag. reflexivity.
Qed.

Lemma bundle_of_bound q id b : bundle_of q id = Some b -> 1 <= id <= N.of_nat (length q).
Proof.
  unfold bundle_of. destruct (id =? 0) eqn:E; [discriminate|]. apply N.eqb_neq in E. intros H.
  assert (N.to_nat (id - 1) < length q)%nat by (apply nth_error_Some; congruence). lia.
Qed.

Lemma transfer_ok_app q d t : transfer_ok q t -> transfer_ok (q ++ d) t.
Proof. intros (b & H1 & H2). exists b. split; [apply bundle_of_app, H1|exact H2]. Qed.
Lemma seg_ext_ok_app q d g : seg_ext_ok q g -> seg_ext_ok (q ++ d) g.
Proof. intros (b & H1 & H2). exists b. split; [apply bundle_of_app, H1|exact H2]. Qed.

(** ** The core sender invariant *)
Definition sent_xstate (v : av) : xstate := xfold (segs_of (a_sn v)).
Definition sent_transfers (v : av) : list transfer := transfers_of (segs_of (a_sn v)).
Definition opt_list {A} (o : option A) : list A := match o with Some a => [a] | None => [] end.
(** The transfers accepted and not sent in full: the one in progress, then those waiting. *)
Definition pending (v : av) : list (N * bytes) := opt_list (a_tt v) ++ a_ps v.
(** Every id below [lim] has been taken off the queue. *)
Definition lim (v : av) : N := match pending v with p :: _ => fst p | [] => a_nid v end.
Definition tr_le (a b : transfer) : Prop :=
  tr_id a <= tr_id b /\ (tr_complete a = true -> tr_id a < tr_id b).
Definition ps_lt (a b : N * bytes) : Prop := fst a < fst b.

Set Implicit Arguments.
Record Score (v : av) : Prop := {
  sc_nid : a_nid v = N.of_nat (length (a_q v)) + 1;
  sc_pend_sorted : StronglySorted ps_lt (pending v);
  sc_pend_ok : Forall (fun p => bundle_of (a_q v) (fst p) = Some (snd p)) (pending v);
  sc_tr_ok : Forall (transfer_ok (a_q v)) (sent_transfers v);
  (* non-decreasing ids, increasing after a complete transfer *)
  sc_tr_sorted : StronglySorted tr_le (sent_transfers v);
  (* all at or below [lim]; the complete ones, and all when none is in progress, strictly below *)
  sc_tr_lim : Forall (fun t => tr_id t <= lim v /\ (tr_complete t = true \/ a_tt v = None -> tr_id t < lim v)) (sent_transfers v);
  (* what was sent of the transfer in progress is its first [a_tl] octets *)
  sc_cur : forall id data, a_tt v = Some (id, data) ->
      a_tl v <= N.of_nat (length data) /\
      (0 < a_tl v -> fst (sent_xstate v) = Some (id, firstn (N.to_nat (a_tl v)) data));
  sc_grouped : grouped (segs_of (a_sn v));
  sc_ext : Forall (seg_ext_ok (a_q v)) (segs_of (a_sn v)) }.
Unset Implicit Arguments.

Lemma grouped_snoc l g : grouped l -> seg_continues (fst (xfold l)) g -> grouped (l ++ [g]).
Proof.
  intros H Hg pre x post E. apply snoc_cases in E.
  destruct E as [(post' & -> & ->)|(-> & -> & ->)]; [eapply H; reflexivity|exact Hg].
Qed.

Lemma pending_lt_nid v : Score v -> Forall (fun p => fst p < a_nid v) (pending v).
Proof.
  intros HS. eapply Forall_impl; [|exact (sc_pend_ok HS)]. intros p B. apply bundle_of_bound in B. rewrite (sc_nid HS). lia.
Qed.

Lemma lim_le v : Score v -> lim v <= a_nid v.
Proof. intros HS. pose proof (pending_lt_nid v HS) as F. unfold lim. destruct (pending v); [lia|]. inversion F; subst. lia. Qed.

Lemma cur_bundle v id data : Score v -> a_tt v = Some (id, data) -> bundle_of (a_q v) id = Some data.
Proof. intros HS Tt. pose proof (sc_pend_ok HS) as F. unfold pending in F. rewrite Tt in F. inversion F; subst. assumption. Qed.

(** The id limit once the current transfer [id] is over. *)
Lemma next_lim v id data : Score v -> a_tt v = Some (id, data) ->
  id < match a_ps v with p :: _ => fst p | [] => a_nid v end.
Proof.
  intros HS Tt. pose proof (sc_pend_sorted HS) as S. pose proof (pending_lt_nid v HS) as F. unfold pending in *. rewrite Tt in *.
  inversion S as [|? ? _ Fr]; subst. inversion F; subst. destruct (a_ps v); [assumption|]. inversion Fr; subst. assumption.
Qed.

(** One more segment of the current transfer [(id, data)]: the transfers sent
    are some [T0] and then, if [a_tl v] octets of [data] went out already,
    those octets as an open transfer; afterwards they are [T0] and the first
    [newlen] octets. *)
Lemma seg_transfers v id data k :
  Score v -> a_tt v = Some (id, data) ->
  let total := N.of_nat (length data) in
  let seg := next_seg id data (a_tl v) k in
  let newlen := a_tl v + N.of_nat (length seg) in
  let fl := seg_flags (a_tl v) newlen total in
  forall ext,
  exists T0,
    sent_transfers v = T0 ++ (if a_tl v =? 0 then [] else [(id, firstn (N.to_nat (a_tl v)) data, false)]) /\
    transfers_of (segs_of (a_sn v) ++ [(fl, id, ext, seg)]) = T0 ++ [(id, firstn (N.to_nat newlen) data, newlen =? total)] /\
    xfold (segs_of (a_sn v) ++ [(fl, id, ext, seg)]) =
      (if newlen =? total then (None, T0 ++ [(id, firstn (N.to_nat newlen) data, true)])
       else (Some (id, firstn (N.to_nat newlen) data), T0)) /\
    ((fst (sent_xstate v) <> None -> 0 < a_tl v) -> T0 = snd (sent_xstate v)) /\
    seg_continues (fst (sent_xstate v)) (fl, id, ext, seg).
Proof.
  intros HS Tt total seg newlen fl ext.
  destruct (sc_cur HS Tt) as (L & C).
  pose proof (next_seg_app id data (a_tl v) k L) as NApp. fold seg newlen in NApp.
  unfold sent_transfers, sent_xstate, transfers_of, open_transfer in *. rewrite xfold_snoc, <- NApp.
  destruct (xfold (segs_of (a_sn v))) as [cur out]. cbn [fst snd xfer_step] in *.
  unfold fl, seg_continues, xs_flags, xs_id. cbn [fst snd]. rewrite seg_flags_start, seg_flags_end.
  destruct (N.eqb_spec (a_tl v) 0) as [Z|Z].
  - exists (out ++ match cur with Some (c, acc) => [(c, acc, false)] | None => [] end).
    rewrite Z, app_nil_r. split; [reflexivity|]. split; [|split; [|split; [|discriminate]]].
    1,2: destruct cur as [[c a]|], (newlen =? total); cbn [fst snd]; rewrite ?app_nil_r; reflexivity.
    intros Hc. destruct cur; [assert (0 < 0) by (apply Hc; discriminate); lia|apply app_nil_r].
  - rewrite C by lia. rewrite N.eqb_refl. exists out. repeat split; [|eexists; reflexivity].
    destruct (newlen =? total); cbn [fst snd]; rewrite ?app_nil_r; reflexivity.
Qed.

(** The fields of [Score] at an updated state, in terms of the old state. *)
Ltac sc_fields := constructor; unfold sent_transfers, sent_xstate, lim, pending in *; av_simpl.

Lemma Score_seg v id data k :
  Score v -> a_tt v = Some (id, data) ->
  let total := N.of_nat (length data) in
  let seg := next_seg id data (a_tl v) k in
  let newlen := a_tl v + N.of_nat (length seg) in
  let m := MXferSeg (seg_flags (a_tl v) newlen total) id
                    (if a_tl v =? 0 then total_length_ext total else []) seg in
  Score (if newlen =? total
         then v <| a_sn := a_sn v ++ [FMsg m] |> <| a_tt := None |> <| a_tl := 0 |>
         else v <| a_sn := a_sn v ++ [FMsg m] |> <| a_tl := newlen |>).
Proof.
  intros HS Tt total seg newlen m.
  pose proof (next_lim v id data HS Tt) as NL. pose proof (cur_bundle v id data HS Tt) as B.
  destruct (seg_transfers v id data k HS Tt (if a_tl v =? 0 then total_length_ext total else [])) as (T0 & ET & ET' & EX & _ & Hg).
  fold total seg newlen in ET', EX, Hg.
  destruct HS as [Hn S1 S2 S3 S4 S5 S6 S7 S8].
  destruct (S6 _ _ Tt) as (L & C).
  pose proof (next_seg_len id data (a_tl v) k L) as NLen. fold seg newlen total in NLen.
  (* the transfers before this one *)
  rewrite ET in S3, S4, S5. apply Forall_app, proj1 in S3. apply SSorted_app_l in S4. apply Forall_app, proj1 in S5.
  unfold lim, pending in S1, S2, S5. rewrite Tt in S1, S2, S5. cbn [opt_list app fst] in S1, S2, S5.
  set (t := (id, firstn (N.to_nat newlen) data, newlen =? total)).
  assert (S3' : Forall (transfer_ok (a_q v)) (T0 ++ [t])).
  { apply Forall_app. split; [exact S3|]. constructor; [|constructor]. exists data. split; [exact B|]. split.
    - intros E. apply N.eqb_eq in E. cbn [t tr_data fst snd]. rewrite E. unfold total. rewrite Nat2N.id. apply firstn_all.
    - intros _. apply firstn_prefix. }
  assert (S4' : StronglySorted tr_le (T0 ++ [t])).
  { apply SSorted_snoc. split; [exact S4|]. eapply Forall_impl; [|exact S5]. intros t0 [H1 H2]. split; [exact H1|]. intros Hc. apply H2. left. exact Hc. }
  pose proof (grouped_snoc _ _ S7 Hg) as S7'.
  assert (S8' : Forall (seg_ext_ok (a_q v)) (segs_of (a_sn v) ++ [(seg_flags (a_tl v) newlen total, id,
                   (if a_tl v =? 0 then total_length_ext total else []), seg)])).
  { apply Forall_app. split; [exact S8|]. constructor; [|constructor]. exists data. split; [exact B|].
    unfold xs_ext, xs_flags. cbn [fst snd]. rewrite seg_flags_start. reflexivity. }
  unfold m.
  destruct (newlen =? total) eqn:E; sc_fields; rewrite ?segs_of_snoc_seg, ?ET', ?EX, ?Tt; cbn [opt_list app fst]; try assumption.
  - (* END: the limit moves on *) inversion S1; assumption.
  - inversion S2; assumption.
  - apply Forall_app. split; [eapply Forall_impl; [|exact S5]; cbv beta; intros t0 [H1 _]|constructor; [cbn|constructor]]; split; intros; lia.
  - discriminate.
  - (* more to come *)
    apply Forall_app. split; [exact S5|]. constructor; [|constructor]. split; [apply N.le_refl|].
    intros [Hc|Hc]; discriminate Hc.
  - intros i dd [= <- <-]. split; [exact NLen|intros _; reflexivity].
Qed.

(** Dropping the transfers not yet started (close, or flush when terminating). *)
Lemma Score_drop v ev cl : Score v -> Score (v <| a_ev := ev |> <| a_ps := [] |> <| a_cl := cl |>).
Proof.
  intros HS. pose proof (lim_le v HS) as LL. destruct HS as [Hn S1 S2 S3 S4 S5 S6 S7 S8].
  sc_fields; rewrite ?app_nil_r; try assumption.
  - exact (SSorted_app_l _ _ _ S1).
  - apply Forall_app in S2. apply S2.
  - eapply Forall_impl; [|exact S5]. intros t [H1 H2].
    destruct (a_tt v) as [p|]; [split; assumption|]. cbn [opt_list app] in *.
    assert (tr_id t < match a_ps v with [] => a_nid v | p :: _ => fst p end) by (apply H2; right; reflexivity).
    split; [lia|intros _; lia].
Qed.

Lemma Score_step v v' : Score v -> astep v v' -> Score v'.
Proof.
  intros HS H. pose proof (lim_le v HS) as LL. pose proof (pending_lt_nid v HS) as Hb.
  destruct H; try (apply Score_seg; assumption);
    (* a frame without segment is sent, or fields change that [Score] does not read *)
    try solve [destruct HS; sc_fields; rewrite ?segs_of_snoc_none by assumption; assumption].
  - (* close: the unstarted queue is dropped *) exact (Score_drop v _ true HS).
  - (* queue *)
    destruct HS as [Hn S1 S2 S3 S4 S5 S6 S7 S8]. sc_fields; rewrite ?app_assoc; try assumption.
    + rewrite app_length. cbn [length]. lia.
    + apply SSorted_snoc. split; [exact S1|exact Hb].
    + apply Forall_app. split.
      * eapply Forall_impl; [|exact S2]. intros p Hp. apply bundle_of_app, Hp.
      * constructor; [|constructor]. cbn [fst snd]. rewrite Hn. apply bundle_of_new.
    + eapply Forall_impl; [|exact S3]. intros t. apply transfer_ok_app.
    + destruct (opt_list (a_tt v) ++ a_ps v); exact S5.
    + eapply Forall_impl; [|exact S8]. intros g. apply seg_ext_ok_app.
  - (* flush *) exact (Score_drop v _ (a_cl v) HS).
  - (* refuse_ps *)
    destruct HS as [Hn S1 S2 S3 S4 S5 S6 S7 S8]. sc_fields; try assumption.
    + destruct (a_tt v); [|apply dict_del_sorted, S1]. cbn [opt_list app] in *. inversion S1; subst.
      constructor; [apply dict_del_sorted|apply dict_del_Forall]; assumption.
    + apply Forall_app in S2. apply Forall_app. split; [|apply dict_del_Forall]; apply S2.
    + eapply Forall_impl; [|exact S5]. intros t [H1 H2].
      assert (Hl : match opt_list (a_tt v) ++ a_ps v with [] => a_nid v | p :: _ => fst p end
                   <= match opt_list (a_tt v) ++ dict_del xid (a_ps v) with [] => a_nid v | p :: _ => fst p end).
      { destruct (a_tt v); [apply N.le_refl|]. cbn [opt_list app] in *.
        destruct (a_ps v) as [|[i dd] rr]; cbn [dict_del]; [lia|]. destruct (i =? xid); [|lia].
        inversion S1 as [|? ? _ Fr]; subst. inversion Hb; subst.
        destruct rr; [cbn [fst] in *; lia|inversion Fr; subst; unfold ps_lt in *; lia]. }
      split; [lia|]. intros Hc. specialize (H2 Hc). lia.
  - (* refuse_cur *)
    pose proof (next_lim v xid data HS H0) as NL. destruct HS as [Hn S1 S2 S3 S4 S5 S6 S7 S8].
    sc_fields; rewrite H0 in *; cbn [opt_list app fst] in *; try assumption; try discriminate.
    + inversion S1; assumption.
    + inversion S2; assumption.
    + eapply Forall_impl; [|exact S5]. intros t [H1 H2]. split; [lia|intros _; lia].
  - (* start: the same pending transfers *)
    match goal with C : a_cl v = false |- _ => rename C into Hcl end.
    destruct HS as [Hn S1 S2 S3 S4 S5 S6 S7 S8].
    sc_fields; rewrite H, H2 in *; cbn [opt_list app fst] in *; try assumption.
    + eapply Forall_impl; [|exact S5]. intros t [H3 H4].
      assert (tr_id t < id) by (apply H4; right; reflexivity). split; [lia|intros _; assumption].
    + intros i dd _. split; [lia|intros F; lia].
Qed.

Lemma complete_of_app a b : complete_of (a ++ b) = complete_of a ++ complete_of b.
Proof. apply flat_map_app. Qed.

(** ** With segments that make progress: transfer ids strictly increase *)
Definition tr_lt (a b : transfer) : Prop := tr_id a < tr_id b.

Definition Sne (v : av) : Prop :=
  Forall seg_progress (segs_of (a_sn v)) ->
  StronglySorted tr_lt (sent_transfers v) /\
  (forall id data, a_tt v = Some (id, data) -> a_tl v = 0 -> Forall (fun t => tr_id t < id) (sent_transfers v)).

(** A segment that makes progress and is not the last leaves a non-empty transfer in progress. *)
Lemma progress_newlen tl tot id ext (seg : bytes) :
  seg_progress (seg_flags tl (tl + N.of_nat (length seg)) tot, id, ext, seg) ->
  (tl + N.of_nat (length seg) =? tot) = false -> 0 < tl + N.of_nat (length seg).
Proof.
  unfold seg_progress, xs_flags, xs_data. cbn [fst snd]. rewrite seg_flags_start, seg_flags_end. intros Hp E.
  destruct (N.eqb_spec tl 0) as [->|]; [|lia]. specialize (Hp eq_refl E). destruct seg; [contradiction|cbn [length]; lia].
Qed.

Lemma Sne_step v v' : Score v -> Sne v -> astep v v' -> Sne v'.
Proof.
  intros HS HN H. destruct H; try exact HN.
  - (* send *) unfold Sne, sent_transfers in *. av_simpl. rewrite segs_of_snoc_none by assumption. exact HN.
  - (* refuse_cur *) unfold Sne, sent_transfers in *. av_simpl. intros NE. split; [apply HN, NE|]. discriminate.
  - (* start *)
    unfold Sne, sent_transfers in *. av_simpl. intros NE. split; [apply HN, NE|].
    intros i dd [= <- <-] _.
    pose proof (sc_tr_lim HS) as S5. unfold sent_transfers, lim, pending in S5. rewrite H, H2 in S5.
    eapply Forall_impl; [|exact S5]. intros t [_ H4]. apply H4. right. reflexivity.
  - (* seg *)
    destruct (seg_transfers v id data k HS H (if a_tl v =? 0 then total_length_ext total else [])) as (T0 & ET & ET' & _).
    fold total seg newlen in ET'. unfold m, Sne, sent_transfers in *.
    destruct (newlen =? total) eqn:E; av_simpl; rewrite segs_of_snoc_seg, ET'; intros NE; apply Forall_app in NE; destruct NE as [NE Ng];
      destruct (HN NE) as [HN1 HN2]; rewrite ET in HN1, HN2;
      (split; [apply SSorted_snoc; split; [exact (SSorted_app_l _ _ _ HN1)|]|]).
    1,3: (* the earlier transfers have smaller ids: the current one was just started, or it is the last of them *)
      destruct (a_tl v =? 0) eqn:Z; [apply N.eqb_eq in Z; rewrite <- (app_nil_r T0); exact (HN2 _ _ H Z)|apply SSorted_snoc in HN1; apply HN1].
    + discriminate.
    + intros i dd _ Hz. inversion Ng as [|? ? Hp _]; subst. apply progress_newlen in Hp; [|exact E]. fold newlen in Hp. lia.
Qed.

(** ** Without XFER_REFUSE: transfers are exactly ids 1, 2, 3, ... *)
Definition opt_id (tt : option (N * bytes)) : list N :=
  match tt with Some (i, _) => [i] | None => [] end.


(** The ids taken off the queue so far. *)
Definition taken (v : av) : list N := map fst (complete_of (sent_transfers v)) ++ opt_id (a_tt v).

Definition Snr (v : av) : Prop :=
  no_refuse (a_hd v) ->
  let n := length (taken v) in
  taken v = Nseq 1 n /\
  (n <= length (a_q v))%nat /\
  (a_it v = false -> a_cl v = false -> map fst (a_ps v) = Nseq (S n) (length (a_q v) - n)) /\
  (forall cid acc, fst (sent_xstate v) = Some (cid, acc) -> exists data, a_tt v = Some (cid, data)).

Lemma no_refuse_in l r xid : no_refuse l -> In (FMsg (MXferRefuse r xid)) l -> False.
Proof. intros H Hin. unfold no_refuse in H. rewrite Forall_forall in H. apply H in Hin. discriminate Hin. Qed.

Lemma Nseq_cons a n : Nseq a (S n) = N.of_nat a :: Nseq (S a) n.
Proof. reflexivity. Qed.

Lemma astep_no_refuse v v' : astep v v' -> no_refuse (a_hd v') -> no_refuse (a_hd v).
Proof.
  intros H NR. destruct H; try exact NR; [apply Forall_app in NR; apply NR|destruct (newlen =? total); exact NR].
Qed.

Lemma Snr_step v v' : Score v -> Snr v -> astep v v' -> Snr v'.
Proof.
  intros HS HN H NR. pose proof (astep_no_refuse v v' H NR) as NR0.
  destruct (HN NR0) as (R1 & R2 & R3 & R4). clear HN NR. cbv zeta.
  destruct H; try solve [repeat split; assumption].
  - (* send *) unfold taken, sent_transfers, sent_xstate in *. av_simpl. rewrite segs_of_snoc_none by assumption. repeat split; assumption.
  - (* close *) repeat split; try assumption. intros _ F. discriminate F.
  - (* term *) repeat split; try assumption. discriminate.
  - (* queue *)
    pose proof (sc_nid HS) as Hn. change (taken _) with (taken v). av_simpl. set (n := length (taken v)) in *.
    repeat split; try assumption.
    + rewrite app_length. cbn [length]. lia.
    + intros It Cl'. rewrite map_app, (R3 It Cl'). cbn [map fst]. rewrite app_length. cbn [length].
      replace (length (a_q v) + 1 - n)%nat with (S (length (a_q v) - n)) by lia.
      rewrite Nseq_snoc. f_equal. f_equal. lia.
  - (* flush *) repeat split; try assumption. intros It _. av_simpl. congruence.
  - (* refuse_ps *) exfalso. eapply no_refuse_in; eassumption.
  - (* refuse_cur *) exfalso. eapply no_refuse_in; eassumption.
  - (* start: the head of the queue is the next id *)
    match goal with C : a_cl v = false |- _ => rename C into Hcl end.
    unfold taken, sent_transfers, sent_xstate in *. av_simpl.
    rewrite H in *. cbn [opt_id] in *. rewrite app_nil_r in *.
    set (Cm := map fst (complete_of (transfers_of (segs_of (a_sn v))))) in *.
    specialize (R3 H1 Hcl). rewrite H2 in R3. cbn [map fst] in R3.
    destruct (length (a_q v) - length Cm)%nat as [|m] eqn:Em; [discriminate R3|].
    rewrite Nseq_cons in R3. injection R3 as Hid Hrest.
    rewrite app_length. cbn [length]. rewrite Nat.add_1_r.
    repeat split.
    + rewrite Nseq_snoc, <- R1, Hid. repeat f_equal; lia.
    + lia.
    + intros _ _. rewrite Hrest. f_equal. lia.
    + intros cid acc Hc. destruct (R4 _ _ Hc) as [dd Hd]. discriminate Hd.
  - (* seg: the id of the current transfer moves, at its END, to the complete ones *)
    destruct (seg_transfers v id data k HS H (if a_tl v =? 0 then total_length_ext total else [])) as (T0 & ET & ET' & EX & _).
    fold total seg newlen in ET', EX.
    assert (ETk : forall c, map fst (complete_of (T0 ++ [(id, firstn (N.to_nat newlen) data, c)])) ++ (if c then [] else [id]) = taken v).
    { intros c. unfold taken. rewrite ET, H, !complete_of_app, !map_app. destruct c, (a_tl v =? 0); cbn; rewrite ?app_nil_r, <- ?app_assoc; reflexivity. }
    rewrite <- (ETk (newlen =? total)) in *. unfold m, taken, sent_transfers, sent_xstate.
    destruct (newlen =? total) eqn:E; av_simpl; rewrite segs_of_snoc_seg, ET', EX, ?H; repeat split; try assumption.
    + discriminate.
    + intros cid acc [= <- <-]. eexists. reflexivity.
Qed.

(** ** With both: never two transfers open, only the last can be incomplete *)
Definition Sst (v : av) : Prop :=
  Forall seg_progress (segs_of (a_sn v)) -> no_refuse (a_hd v) ->
  grouped_strict (segs_of (a_sn v)) /\
  (fst (sent_xstate v) <> None -> 0 < a_tl v) /\
  Forall (fun t => tr_complete t = true) (snd (sent_xstate v)).

Lemma grouped_strict_snoc l g : grouped_strict l ->
  seg_continues (fst (xfold l)) g -> seg_opens_fresh (fst (xfold l)) g -> grouped_strict (l ++ [g]).
Proof.
  intros H Hg Hf pre x post E. apply snoc_cases in E.
  destruct E as [(post' & -> & ->)|(-> & -> & ->)]; [eapply H; reflexivity|split; assumption].
Qed.

Lemma Sst_step v v' : Score v -> Snr v -> Sst v -> astep v v' -> Sst v'.
Proof.
  intros HS HR HN H. destruct H; try exact HN.
  - (* send *) unfold Sst, sent_transfers, sent_xstate in *. av_simpl. rewrite segs_of_snoc_none by assumption. exact HN.
  - (* handle *) unfold Sst, sent_transfers, sent_xstate in *. av_simpl. intros NE NR. apply HN; [exact NE|]. apply Forall_app in NR. apply NR.
  - (* refuse_cur *) unfold Sst. av_simpl. intros _ NR. exfalso. eapply no_refuse_in; eassumption.
  - (* start *)
    match goal with C : a_cl v = false |- _ => rename C into Hcl end.
    unfold Sst, sent_xstate in *. av_simpl. intros NE NR. destruct (HN NE NR) as (H3 & H4 & H5).
    split; [exact H3|]. split; [|exact H5]. intros Hc. exfalso.
    destruct (fst (xfold (segs_of (a_sn v)))) as [[cid acc]|] eqn:Ec; [|apply Hc; reflexivity].
    destruct (HR NR) as (_ & _ & _ & R4). unfold sent_xstate in R4. destruct (R4 _ _ Ec) as [dd Hd]. congruence.
  - (* seg *)
    destruct (seg_transfers v id data k HS H (if a_tl v =? 0 then total_length_ext total else [])) as (T0 & _ & _ & EX & ES & Hg).
    fold total seg newlen in EX, Hg. unfold m, Sst, sent_xstate in *.
    destruct (newlen =? total) eqn:E; av_simpl; rewrite segs_of_snoc_seg, EX; intros NE NR; apply Forall_app in NE; destruct NE as [NE Ng];
      destruct (HN NE NR) as (H3 & H4 & H5); rewrite <- (ES H4) in H5; cbn [fst snd];
      (split; [apply grouped_strict_snoc; [exact H3|exact Hg|]|split]).
    1,4: (* a START segment: nothing was sent of the current transfer, so none is open *)
      unfold seg_opens_fresh, xs_flags; cbn [fst snd]; rewrite seg_flags_start; intros Z; apply N.eqb_eq in Z;
      destruct (fst (xfold (segs_of (a_sn v)))); [assert (0 < a_tl v) by (apply H4; discriminate); lia|reflexivity].
    + intros F. contradiction F. reflexivity.
    + apply Forall_app. split; [exact H5|]. constructor; [reflexivity|constructor].
    + intros _. inversion Ng as [|? ? Hp _]; subst. exact (progress_newlen _ _ _ _ _ Hp E).
    + exact H5.
Qed.

(** ** Every accepted transfer is accounted for: started, still queued,
       reported as dropped ('terminating'), or refused by the peer *)
Definition fin_term (id : N) : event := ESig SigSendFinished [PStrNum id; PInt 0; PStr RES_TERMINATING].

(** Where the transfer [id] has got to, seen from the events [ev], the queue [ps] and the frames handled [hd]. *)
Definition accounted (ev : list event) (ps : list (N * bytes)) (hd : list frame) (id : N) : Prop :=
  (exists len, In (started_ev id len) ev) \/ In id (map fst ps) \/
  In (fin_term id) ev \/ (exists r, In (FMsg (MXferRefuse r id)) hd).

Definition Cinv (v : av) : Prop :=
  forall id, 1 <= id <= N.of_nat (length (a_q v)) -> accounted (a_ev v) (a_ps v) (a_hd v) id.

(** Events and handled frames only grow; what leaves the queue has to be accounted for otherwise. *)
Lemma accounted_mono ev ps hd ev' ps' hd' id :
  accounted ev ps hd id -> incl ev ev' -> incl hd hd' ->
  (In id (map fst ps) -> accounted ev' ps' hd' id) -> accounted ev' ps' hd' id.
Proof.
  intros [[len H]|[H|[H|[r H]]]] He Hh Hp.
  - left. exists len. apply He, H.
  - apply Hp, H.
  - right. right. left. apply He, H.
  - right. right. right. exists r. apply Hh, H.
Qed.

Lemma Cinv_drop v cl : Cinv v ->
  Cinv (v <| a_ev := a_ev v ++ map term_ev (a_ps v) |> <| a_ps := [] |> <| a_cl := cl |>).
Proof.
  intros C id Hid. av_simpl.
  eapply accounted_mono; [apply C, Hid|apply incl_appl, incl_refl|apply incl_refl|].
  intros Hp. right. right. left. apply in_or_app. right.
  apply in_map_iff in Hp. destruct Hp as [p [<- Hp]]. exact (in_map term_ev _ p Hp).
Qed.

Lemma Cinv_step v v' : Score v -> Cinv v -> astep v v' -> Cinv v'.
Proof.
  intros HS C H. destruct H; unfold Cinv; av_simpl; try assumption.
  - (* close *) exact (Cinv_drop v true C).
  - (* handle *)
    intros id Hid.
    eapply accounted_mono; [apply C, Hid|apply incl_refl|apply incl_appl, incl_refl|].
    intros Hp. right. left. exact Hp.
  - (* queue: the new id is the last of the queue *)
    pose proof (sc_nid HS) as Hn.
    intros id Hid. rewrite app_length in Hid. cbn [length] in Hid.
    destruct (N.eq_dec id (a_nid v)) as [->|Hne].
    + right. left. rewrite map_app. apply in_or_app. right. left. reflexivity.
    + eapply accounted_mono; [apply C; lia|apply incl_refl|apply incl_refl|].
      intros Hp. right. left. rewrite map_app. apply in_or_app. left. exact Hp.
  - (* flush *) exact (Cinv_drop v (a_cl v) C).
  - (* refuse_ps *)
    intros id Hid.
    eapply accounted_mono; [apply C, Hid|apply incl_refl|apply incl_refl|].
    intros Hp. destruct (N.eq_dec id xid) as [->|Hne].
    + right. right. right. exists r. assumption.
    + right. left. apply TcpclSentProofs12.keys_dict_del_ne; [congruence|assumption].
  - (* start: the head of the queue has its "started" event *)
    intros i Hid.
    eapply accounted_mono; [apply C, Hid|apply incl_appl, incl_refl|apply incl_refl|].
    intros Hp. rewrite H2 in Hp. cbn [map fst In] in Hp. destruct Hp as [<-|Hp].
    + left. eexists. apply in_or_app. right. left. reflexivity.
    + right. left. exact Hp.
  - (* seg *)
    match goal with |- context [if ?c then _ else _] => destruct c end; av_simpl; assumption.
Qed.

(** ** All sender invariants hold on every run *)
Definition Ainv (v : av) : Prop := Binv v /\ Score v /\ Sne v /\ Snr v /\ Sst v /\ Cinv v.

Lemma Ainv_step v v' : Ainv v -> astep v v' -> Ainv v'.
Proof.
  intros (HB & H1 & H2 & H3 & H4 & HC) H. split; [|split; [|split; [|split; [|split]]]].
  - eapply Binv_step; eassumption.
  - eapply Score_step; eassumption.
  - eapply Sne_step; eassumption.
  - eapply Snr_step; eassumption.
  - eapply Sst_step; eassumption.
  - eapply Cinv_step; eassumption.
Qed.

Lemma Ainv_init c : Ainv (sv [] (init c)).
Proof.
  split; [apply Binv_init|]. split; [|split; [|split; [|split]]].

  - constructor; cbn; try constructor; try discriminate. intros pre g post E. destruct pre; discriminate E.
  - intros _. unfold sent_transfers. cbn. split; [constructor|]. discriminate.
  - intros _. unfold sent_transfers, sent_xstate. cbn. repeat split; try discriminate. lia.
  - intros _ _. unfold sent_xstate. cbn. split; [|split; [|constructor]].
    + intros pre g post E. destruct pre; discriminate E.
    + intros F. exfalso. apply F. reflexivity.
  - intros id Hid. cbn in Hid. lia.
Qed.

Theorem Ainv_run c ops : Ainv (sv (queued c ops) (run c ops)).
Proof.
  eapply (asteps_invariant Ainv); [intros v v'; apply Ainv_step|apply as_run|apply Ainv_init].
Qed.

(** ** Sender theorems over runs *)
Lemma Nseq_length a n : length (Nseq a n) = n.
Proof. unfold Nseq. rewrite map_length, seq_length. reflexivity. Qed.

Lemma Nseq_app_prefix l r n : l ++ r = Nseq 1 n -> l = Nseq 1 (length l).
Proof.
  revert r n. induction l as [|x l IH] using rev_ind; intros r n E; [reflexivity|].
  rewrite <- app_assoc in E. pose proof (IH _ _ E) as Hl.
  rewrite app_length. cbn [length]. rewrite Nat.add_1_r, Nseq_snoc, <- Hl. f_equal.
  assert (En : nth_error (l ++ [x] ++ r) (length l) = Some x).
  { rewrite nth_error_app2 by lia. rewrite Nat.sub_diag. reflexivity. }
  rewrite E in En. unfold Nseq in En.
  assert (Hlt : (length l < n)%nat).
  { assert (nth_error (map N.of_nat (seq 1 n)) (length l) <> None) by congruence.
    apply nth_error_Some in H. rewrite map_length, seq_length in H. exact H. }
  rewrite nth_error_map, nth_error_nth' with (d := O) in En by (rewrite seq_length; exact Hlt).
  rewrite seq_nth in En by exact Hlt. cbn [option_map] in En. injection En as <-. reflexivity.
Qed.

Lemma firstn_S_nth {A} (q : list A) k d : nth_error q k = Some d -> firstn (S k) q = firstn k q ++ [d].
Proof.
  revert q. induction k as [|k IH]; intros q H; destruct q as [|a q]; try discriminate H.
  - cbn in H. injection H as ->. reflexivity.
  - cbn [nth_error] in H. cbn [firstn app]. f_equal. apply IH, H.
Qed.

Lemma complete_exact q (Cm : list (N * bytes)) :
  map fst Cm = Nseq 1 (length Cm) ->
  (forall id d, In (id, d) Cm -> bundle_of q id = Some d) ->
  map snd Cm = firstn (length Cm) q.
Proof.
  induction Cm as [|[id d] Cm IH] using rev_ind; intros Hf Hb; [reflexivity|].
  rewrite app_length in *. cbn [length] in *. rewrite Nat.add_1_r in *.
  rewrite map_app in *. cbn [map fst snd] in *. rewrite Nseq_snoc in Hf.
  apply app_inj_tail in Hf. destruct Hf as [Hf Hid].
  assert (Hd : bundle_of q id = Some d) by (apply Hb, in_or_app; right; left; reflexivity).
  unfold bundle_of in Hd. destruct (id =? 0) eqn:Z; [discriminate|].
  replace (N.to_nat (id - 1)) with (length Cm) in Hd by lia.
  rewrite (firstn_S_nth _ _ _ Hd). f_equal. apply IH; [exact Hf|].
  intros i dd Hin. apply Hb, in_or_app. left. exact Hin.
Qed.

Lemma complete_of_in ts id d : In (id, d) (complete_of ts) -> In (id, d, true) ts.
Proof.
  unfold complete_of. rewrite in_flat_map. intros [[[i dd] c] [H1 H2]].
  unfold tr_complete, tr_id, tr_data in H2. cbn [fst snd] in H2.
  destruct c; [|contradiction]. destruct H2 as [[= <- <-]|[]]. exact H1.
Qed.

Section Sender.
  Variable c : cfg.
  Variable ops : list op.
  Let s := run c ops.
  Let q := queued c ops.
  Let sg := segs_of (sent s).

  (** Unconditional structure of what was sent. *)
  Theorem sender_structure :
    grouped sg /\
    Forall (seg_ext_ok q) sg /\
    Forall (transfer_ok q) (transfers_of sg) /\
    StronglySorted tr_le (transfers_of sg).
  Proof.
    destruct (Ainv_run c ops) as (_ & HS & _).
    exact (conj (sc_grouped HS) (conj (sc_ext HS) (conj (sc_tr_ok HS) (sc_tr_sorted HS)))).
  Qed.

  (** Transfer ids are never reused (given segments that make progress). *)
  Theorem sender_ids_increase :
    Forall seg_progress sg -> StronglySorted tr_lt (transfers_of sg).
  Proof.
    destruct (Ainv_run c ops) as (_ & _ & S & _). intros NE. apply (S NE).
  Qed.

  (** A complete transfer carries the bundle queued under its id. *)
  Theorem complete_bundle id d : In (id, d) (complete_of (transfers_of sg)) -> bundle_of q id = Some d.
  Proof.
    intros Hin. apply complete_of_in in Hin.
    destruct (Ainv_run c ops) as (_ & HS & _). pose proof (sc_tr_ok HS) as S3.
    unfold sent_transfers in S3. cbn [a_sn a_q sv] in S3. fold s sg q in S3. rewrite Forall_forall in S3.
    destruct (S3 _ Hin) as (b & Hb & Hc & _). unfold tr_id, tr_data, tr_complete in *. cbn [fst snd] in *.
    rewrite (Hc eq_refl). exact Hb.
  Qed.

  (** Without XFER_REFUSE the complete transfers are exactly the first bundles queued. *)
  Theorem sender_exact :
    no_refuse (handled s) ->
    let Cm := complete_of (transfers_of sg) in
    map fst Cm = Nseq 1 (length Cm) /\ map snd Cm = firstn (length Cm) q.
  Proof.
    destruct (Ainv_run c ops) as (_ & _ & _ & S & _). intros NR Cm.
    destruct (S NR) as (R1 & _). fold s in R1. unfold sent_transfers in R1. cbn [a_sn sv] in R1. fold sg Cm in R1.
    apply Nseq_app_prefix in R1. rewrite map_length in R1.
    split; [exact R1|]. apply complete_exact; [exact R1|exact complete_bundle].
  Qed.

  (** With both: never two transfers open, and only the last transfer can be incomplete. *)
  Theorem sender_strict :
    Forall seg_progress sg -> no_refuse (handled s) ->
    grouped_strict sg /\
    (forall ts t, transfers_of sg = ts ++ [t] -> Forall (fun t => tr_complete t = true) ts).
  Proof.
    destruct (Ainv_run c ops) as (_ & _ & _ & _ & S & _). intros NE NR. destruct (S NE NR) as (G & _ & F).
    split; [exact G|]. intros ts t E. unfold sent_xstate in F. cbn [a_sn sv] in F. fold s sg in F.
    unfold transfers_of, open_transfer in E. destruct (fst (xfold sg)) as [[ci acc]|].
    - apply app_inj_tail in E. destruct E as [<- _]. exact F.
    - rewrite app_nil_r in E. rewrite E in F. apply Forall_app in F. apply F.
  Qed.

  (** The k-th accepted [send_bundle_data] returned id k. *)
  Theorem send_ids_spec : send_ids (trace s) = Nseq 1 (length q).
  Proof. exact (b_ids (proj1 (Ainv_run c ops))). Qed.

  (** This implementation never sends XFER_REFUSE. *)
  Theorem no_refuse_sent : no_refuse (sent s).
  Proof. exact (b_no_refuse (proj1 (Ainv_run c ops))). Qed.

  (** Every segment sent is preceded by the SESS_INIT. *)
  Theorem sent_init_first : init_first (sent s).
  Proof. exact (b_init_first (proj1 (Ainv_run c ops))). Qed.

  (** Success is only reported on handling an END-flagged XFER_ACK for that id. *)
  Theorem success_acked id len :
    In (ESig SigSendFinished [PStrNum id; PInt len; PStr RES_SUCCESS]) (trace s) ->
    exists fl, has_end fl = true /\ In (FMsg (MXferAck fl id len)) (handled s).
  Proof.
    intros Hin. apply (b_succ (proj1 (Ainv_run c ops))).
    cbn [a_sc sv]. unfold succ_events. apply in_flat_map.
    exists (ESig SigSendFinished [PStrNum id; PInt len; PStr RES_SUCCESS]). split; [exact Hin|left; reflexivity].
  Qed.
End Sender.

(** ** The zero segment size run: ids are reused without the progress premise *)
Definition zs_cfg : cfg := mkCfg false [65] 30 0 100 3 None.
Definition zs_hello : bytes :=
  encode_frame (FContact (mkContact MAGIC 4 0)) ++ encode_msg (MSessInit 30 0 (2^64-1) [66] []).
Definition zs_ops : list op := [OStart; ORx zs_hello; OSend [1;2;3]; OPQ; OSend [4]; OPQ].

Theorem sender_ids_increase_refuted :
  exists c ops, ~ StronglySorted tr_lt (transfers_of (segs_of (sent (run c ops)))).
Proof.
  exists zs_cfg, zs_ops.
  assert (E : transfers_of (segs_of (sent (run zs_cfg zs_ops))) = [(1, [], false); (1, [], false)])
    by (vm_compute; reflexivity).
  rewrite E. intros H. inversion H as [|? ? _ F]; subst. inversion F as [|? ? Hlt _]; subst.
  unfold tr_lt, tr_id in Hlt. cbn [fst] in Hlt. lia.
Qed.

(** A closed endpoint has no transfer waiting to start. *)
Theorem closed_nothing_pending c ops : closed (run c ops) = true -> pend_start (run c ops) = [].
Proof. intros Cl. exact (proj1 (TcpclSentProofs12.closed_nothing_unstarted_unreported c ops Cl)). Qed.

(** After a close, every accepted transfer that was never started has been
    reported: finished with the 'terminating' result, or refused by the peer. *)
Theorem unstarted_reported_on_close c ops :
  closed (run c ops) = true ->
  forall id, 1 <= id <= N.of_nat (length (queued c ops)) ->
    (exists len, In (ESig SigSendStarted [PStrNum id; PInt len]) (trace (run c ops))) \/
    In (ESig SigSendFinished [PStrNum id; PInt 0; PStr RES_TERMINATING]) (trace (run c ops)) \/
    (exists r, In (FMsg (MXferRefuse r id)) (handled (run c ops))).
Proof.
  intros Cl id Hid. destruct (Ainv_run c ops) as (_ & _ & _ & _ & _ & C).
  destruct (C id Hid) as [[len Hs]|[Hp|[Ht|Hr]]].
  - left. exists len. cbn [a_ev sv] in Hs. apply filter_In in Hs. apply Hs.
  - cbn [a_ps sv] in Hp. rewrite (closed_nothing_pending c ops Cl) in Hp. contradiction.
  - right. left. cbn [a_ev sv] in Ht. apply filter_In in Ht. apply Ht.
  - right. right. exact Hr.
Qed.
